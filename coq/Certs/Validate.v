(* C04 model (no proofs): ValidateFinalityCertificates, mirroring certs/certs.go statement by statement.
   Hash/CID values and keys are tokens; the aggregate signature is a structural description of what was
   signed (scripted oracle): verification succeeds iff keys, signer mask and payload all match. *)
From Coq Require Import ZArith List Bool.
From F3 Require Import GoInt QuorumGen QuorumProofs Table.
Import ListNotations.
Open Scope Z_scope.

Record tipset := mkTS { ts_epoch : Z; ts_key : Z; ts_keylen : Z; ts_cid : Z; ts_cidlen : Z; ts_commit : Z }.
Definition chain := list tipset.
Definition tipset_eqb (a b : tipset) : bool :=
  (ts_epoch a =? ts_epoch b) && (ts_key a =? ts_key b) && (ts_cid a =? ts_cid b) && (ts_commit a =? ts_commit b).
Fixpoint chain_eqb (a b : chain) : bool :=
  match a, b with [], [] => true | x :: a', y :: b' => tipset_eqb x y && chain_eqb a' b' | _, _ => false end.

(* TipSet.Validate *)
Definition tipset_valid (t : tipset) : bool :=
  negb (ts_keylen t =? 0) && (ts_keylen t <=? 760) && negb (ts_cid t =? 0) && (ts_cidlen t <=? 38).
Fixpoint epochs_increasing (last : Z) (c : chain) : bool :=
  match c with [] => true | t :: r => tipset_valid t && (last <? ts_epoch t) && epochs_increasing (ts_epoch t) r end.
(* ECChain.Validate: the zero chain is valid *)
Definition chain_valid (c : chain) : bool :=
  match c with [] => true | _ => (Z.of_nat (length c) <=? 128) && epochs_increasing (-1) c end.

Record sigdesc := mkSig { s_keys : list Z; s_signers : list Z; s_net : Z; s_inst : Z; s_round : Z; s_phase : Z;
                          s_commit : Z; s_pt : Z; s_chain : chain }.
Record cert := mkCert { c_inst : Z; c_chain : chain; c_commit : Z; c_pt : Z; c_signers : list Z;
                        c_sig : option sigdesc; c_delta : list delta }.

Fixpoint list_eqbZ (a b : list Z) : bool :=
  match a, b with [], [] => true | x :: a', y :: b' => (x =? y) && list_eqbZ a' b' | _, _ => false end.

Inductive verr := VInstance | VChain | VEmpty | VBase | VSignerRange | VSignerZero | VQuorum | VSig
                | VDelta (e : derr) | VPowerCid.

(* verifyFinalityCertificateSignature *)
Fixpoint signer_power (scaled : list Z) (signers : list Z) (acc : Z) : verr + Z :=
  match signers with
  | [] => inr acc
  | i :: r =>
      if Z.of_nat (length scaled) <=? i then inl VSignerRange else
      let p := nth (Z.to_nat i) scaled 0 in
      if p =? 0 then inl VSignerZero else signer_power scaled r (acc + p)
  end.

Definition sig_matches (t : table) (net : Z) (c : cert) : bool :=
  match c_sig c with
  | None => false
  | Some s =>
      list_eqbZ (s_keys s) (map (fun i => e_key (nth (Z.to_nat i) t (mkE 0 0 0))) (c_signers c)) &&
      list_eqbZ (s_signers s) (c_signers c) && (s_net s =? net) && (s_inst s =? c_inst c) &&
      (s_round s =? 0) && (s_phase s =? 5) && (s_commit s =? c_commit c) && (s_pt s =? c_pt c) &&
      chain_eqb (s_chain s) (c_chain c)
  end.

Definition verify_sig (t : table) (net : Z) (c : cert) : option verr :=
  let scaled := scaled_list (map e_power t) in
  let total := sumZ scaled in
  match signer_power scaled (c_signers c) 0 with
  | inl e => Some e
  | inr pw =>
      if negb (isStrongQuorum pw total) then Some VQuorum
      else if sig_matches t net c then None else Some VSig
  end.

Fixpoint cid_token (toks : list (table * Z)) (t : table) : Z :=
  match toks with [] => -1 | (t', k) :: r => if table_eqb t' t then k else cid_token r t end.

Record vstate := mkV { v_next : Z; v_chain : chain; v_prev : table; v_new : option table; v_base : option tipset }.

(* one iteration of the loop; inl = the error (the loop reports the state before this certificate) *)
Definition validate_one (toks : list (table * Z)) (net : Z) (s : vstate) (c : cert) : verr + vstate :=
  if negb (c_inst c =? v_next s) then inl VInstance else
  if negb (chain_valid (c_chain c)) then inl VChain else
  match c_chain c with
  | [] => inl VEmpty
  | b :: suffix =>
      if (match v_base s with Some bs => negb (tipset_eqb bs b) | None => false end) then inl VBase else
      match verify_sig (v_prev s) net c with
      | Some e => inl e
      | None =>
          match apply_diff (v_prev s) (c_delta c) with
          | inl e => inl (VDelta e)
          | inr nt =>
              if negb (cid_token toks nt =? c_pt c) then inl VPowerCid else
              inr (mkV (v_next s + 1) (v_chain s ++ suffix) nt (Some nt) (Some (last (c_chain c) b)))
          end
      end
  end.

Fixpoint validate_loop (toks : list (table * Z)) (net : Z) (s : vstate) (cs : list cert) : option verr * vstate :=
  match cs with
  | [] => (None, s)
  | c :: r => match validate_one toks net s c with
              | inl e => (Some e, s)
              | inr s' => validate_loop toks net s' r
              end
  end.

(* ValidateFinalityCertificates: (nextInstance, chain, newPowerTable, err).  On error the table returned is
   prevPowerTable; on success it is newPowerTable, which is nil (None) when no certificate was given. *)
Definition validate_certs toks net (prev : table) (next : Z) (base : option tipset) (cs : list cert)
  : Z * chain * option table * option verr :=
  let '(e, s) := validate_loop toks net (mkV next [] prev None base) cs in
  match e with
  | Some _ => (v_next s, v_chain s, Some (v_prev s), e)
  | None => (v_next s, v_chain s, v_new s, None)
  end.

Definition verr_code (e : verr) : Z :=
  match e with VInstance => 1 | VChain => 2 | VEmpty => 3 | VBase => 4 | VSignerRange => 5 | VSignerZero => 6
             | VQuorum => 7 | VSig => 8 | VDelta d => 10 + derr_code d | VPowerCid => 9 end.
