From Coq Require Import ZArith List Bool Lia.
From F3 Require Import QuorumGen QuorumProofs Table Validate.
Import ListNotations.
Open Scope Z_scope.

(* what acceptance of ONE certificate means, stated independently of the order of checks *)
Definition cert_ok toks net (s : vstate) (c : cert) (s' : vstate) : Prop :=
  c_inst c = v_next s /\
  chain_valid (c_chain c) = true /\
  (exists b suffix, c_chain c = b :: suffix /\
      (forall bs, v_base s = Some bs -> tipset_eqb bs b = true) /\
      verify_sig (v_prev s) net c = None /\
      exists nt, apply_diff (v_prev s) (c_delta c) = inr nt /\ cid_token toks nt = c_pt c /\
        s' = mkV (v_next s + 1) (v_chain s ++ suffix) nt (Some nt) (Some (last (c_chain c) b))).

Lemma base_ok s b :
  (match v_base s with Some bs => negb (tipset_eqb bs b) | None => false end) = false <->
  (forall bs, v_base s = Some bs -> tipset_eqb bs b = true).
Proof.
  destruct (v_base s) as [bs|].
  - rewrite negb_false_iff. split; [intros H bs' [= <-]; exact H|intros H; exact (H bs eq_refl)].
  - split; [discriminate|reflexivity].
Qed.

Lemma validate_one_ok toks net s c s' :
  validate_one toks net s c = inr s' <-> cert_ok toks net s c s'.
Proof.
  unfold validate_one, cert_ok. split.
  - intros H.
    destruct (Z.eqb_spec (c_inst c) (v_next s)) as [E1|]; cbn [negb] in H; [|discriminate].
    destruct (chain_valid (c_chain c)) eqn:E2; cbn [negb] in H; [|discriminate].
    destruct (c_chain c) as [|b suffix] eqn:E3; [discriminate|].
    destruct (match v_base s with Some bs => _ | None => false end) eqn:E4; [discriminate|]. pose proof (proj1 (base_ok s b) E4) as Hb.
    destruct (verify_sig (v_prev s) net c) eqn:E6; [discriminate|].
    destruct (apply_diff (v_prev s) (c_delta c)) as [e|nt] eqn:E7; [discriminate|].
    destruct (Z.eqb_spec (cid_token toks nt) (c_pt c)) as [E8|]; cbn [negb] in H; [|discriminate].
    injection H as <-. split; [exact E1|]. split; [reflexivity|]. exists b, suffix. split; [reflexivity|]. split; [exact Hb|].
    split; [reflexivity|]. exists nt. auto.
  - intros (H1 & H2 & b & suffix & H3 & H4 & H5 & nt & H6 & H7 & ->).
    rewrite H1, Z.eqb_refl, H2, H5, H6, H7, Z.eqb_refl, H3, (proj2 (base_ok s b) H4). reflexivity.
Qed.

Inductive accepted toks net : vstate -> list cert -> vstate -> Prop :=
| acc_nil s : accepted toks net s [] s
| acc_cons s c s1 cs s2 : cert_ok toks net s c s1 -> accepted toks net s1 cs s2 -> accepted toks net s (c :: cs) s2.

Theorem validate_sound toks net cs : forall s s',
  validate_loop toks net s cs = (None, s') -> accepted toks net s cs s'.
Proof.
  induction cs as [|c cs IH]; intros s s' H; cbn [validate_loop] in H.
  - inversion H; subst. constructor.
  - destruct (validate_one toks net s c) as [e|s1] eqn:E; [discriminate|].
    apply validate_one_ok in E. econstructor; eauto.
Qed.

Lemma signer_power_spec scaled : forall signers acc pw,
  signer_power scaled signers acc = inr pw ->
  Forall (fun i => i < Z.of_nat (length scaled) /\ nth (Z.to_nat i) scaled 0 <> 0) signers /\
  pw = acc + sumZ (map (fun i => nth (Z.to_nat i) scaled 0) signers).
Proof.
  induction signers as [|i r IH]; intros acc pw H; cbn [signer_power] in H.
  - inversion H; subst. split; [constructor|]. cbn. lia.
  - destruct (Z.of_nat (length scaled) <=? i) eqn:E1; [discriminate|]. apply Z.leb_gt in E1.
    destruct (nth (Z.to_nat i) scaled 0 =? 0) eqn:E2; [discriminate|]. apply Z.eqb_neq in E2.
    apply IH in H. destruct H as [F P]. split; [constructor; auto|].
    cbn [map sumZ fold_right]. unfold sumZ in *. lia.
Qed.

(* on rejection, the reported instance / chain / table are exactly those of the valid prefix *)
Theorem validate_prefix_report toks net cs : forall s e s',
  validate_loop toks net s cs = (Some e, s') ->
  exists k c, nth_error cs k = Some c /\
    validate_loop toks net s (firstn k cs) = (None, s') /\ validate_one toks net s' c = inl e.
Proof.
  induction cs as [|c cs IH]; intros s e s' H; cbn [validate_loop] in H; [discriminate|].
  destruct (validate_one toks net s c) as [e1|s1] eqn:E.
  - inversion H; subst. exists 0%nat, c. cbn. auto.
  - apply IH in H. destruct H as [k [c' [N [V O]]]]. exists (S k), c'. cbn [nth_error firstn validate_loop].
    rewrite E. auto.
Qed.
