(* C03, second sentence: a decision reported by the instance (Layer N), turned into a finality certificate with the
   correct power-table delta, is accepted by certificate validation (Certs/Validate.v, the C04 model) on any node that
   holds the same power table. *)
From Coq Require Import ZArith List Bool Lia.
From F3 Require Import ListX QuorumGen QuorumProofs Table DiffProofs Validate ValidateProofs Instance InstanceDecide.
Import ListNotations.
Open Scope Z_scope.

Lemma list_eqbZ_refl l : list_eqbZ l l = true.
Proof. exact (eqb_listZ_refl l). Qed.
Lemma tipset_eqb_refl t : tipset_eqb t t = true.
Proof. unfold tipset_eqb. rewrite !Z.eqb_refl. reflexivity. Qed.
Lemma vchain_eqb_refl c : Validate.chain_eqb c c = true.
Proof. induction c as [|t c IH]; cbn; [reflexivity|rewrite tipset_eqb_refl; exact IH]. Qed.

Section Bridge.
Variable cfg : config.
Variable t : table.
Hypothesis Hpowers : c_powers cfg = scaled_list (map e_power t).
Hypothesis Htotal : c_total cfg = sumZ (scaled_list (map e_power t)).

Lemma power_of_nth x : 0 < power_of cfg x ->
  (Z.of_nat (length (scaled_list (map e_power t))) <=? x) = false /\ nth (Z.to_nat x) (scaled_list (map e_power t)) 0 = power_of cfg x.
Proof.
  unfold power_of. rewrite Hpowers. destruct ((x <? 0) || _) eqn:E; [lia|].
  apply orb_false_elim in E. destruct E as [_ E]. intros _. split; [exact E|reflexivity].
Qed.

Lemma signer_power_sum ss : forall acc,
  (forall x, In x ss -> 0 < power_of cfg x) ->
  signer_power (scaled_list (map e_power t)) ss acc = inr (acc + sum_power cfg ss).
Proof.
  induction ss as [|x ss IH]; intros acc H; cbn [signer_power sum_power fold_right]; [rewrite Z.add_0_r; reflexivity|].
  assert (Hx : 0 < power_of cfg x) by (apply H; left; reflexivity).
  destruct (power_of_nth x Hx) as [E1 E2]. rewrite E1, E2.
  destruct (power_of cfg x =? 0) eqn:E0; [apply Z.eqb_eq in E0; lia|].
  rewrite IH; [|intros y Hy; apply H; right; exact Hy].
  fold (sum_power cfg ss). f_equal. lia.
Qed.

Definition cert_of (inst : Z) (net : Z) (ch : Validate.chain) (commit pt : Z) (j : just) (dl : list delta) : cert :=
  mkCert inst ch commit pt (j_signers j)
         (Some (mkSig (map (fun i => e_key (nth (Z.to_nat i) t (mkE 0 0 0))) (j_signers j)) (j_signers j) net inst 0 5 commit pt ch)) dl.

Lemma decision_sig_verifies inst net ch commit pt j dl :
  (forall x, In x (j_signers j) -> 0 < power_of cfg x) ->
  isStrongQuorum (sum_power cfg (j_signers j)) (c_total cfg) = true ->
  verify_sig t net (cert_of inst net ch commit pt j dl) = None.
Proof.
  intros Hp Hq. unfold verify_sig, cert_of. cbn [c_signers].
  rewrite signer_power_sum by exact Hp. rewrite Z.add_0_l. rewrite <- Htotal, Hq. cbn [negb].
  unfold sig_matches. cbn. rewrite !list_eqbZ_refl, !Z.eqb_refl, vchain_eqb_refl. reflexivity.
Qed.

Theorem decision_cert_accepted toks net s b suffix commit j t' :
  v_prev s = t -> wf t -> wf t' ->
  (forall x, In x (j_signers j) -> 0 < power_of cfg x) ->
  isStrongQuorum (sum_power cfg (j_signers j)) (c_total cfg) = true ->
  chain_valid (b :: suffix) = true ->
  (match v_base s with Some bs => tipset_eqb bs b = true | None => True end) ->
  let c := cert_of (v_next s) net (b :: suffix) commit (cid_token toks (canon t')) j (make_diff t t') in
  validate_one toks net s c =
    inr (mkV (v_next s + 1) (v_chain s ++ suffix) (canon t') (Some (canon t')) (Some (last (b :: suffix) b))).
Proof.
  intros Hprev Hwt Hwt' Hp Hq Hcv Hbase. cbv zeta. apply validate_one_ok.
  split; [reflexivity|]. split; [exact Hcv|]. exists b, suffix. split; [reflexivity|].
  split; [intros bs E; rewrite E in Hbase; exact Hbase|].
  rewrite Hprev. split; [exact (decision_sig_verifies _ _ _ _ _ _ _ Hp Hq)|].
  exists (canon t'). split; [exact (apply_make t t' Hwt Hwt')|]. split; reflexivity.
Qed.
End Bridge.
