(* apply_deltas respects map equivalence; canonical sort does not change the map *)
From Coq Require Import ZArith List Sorting.Permutation.
From F3 Require Import Table DiffProofs.
Import ListNotations.
Open Scope Z_scope.

Definition meq (a b : table) : Prop := forall id, lookup a id = lookup b id.

Lemma meq_refl a : meq a a. Proof. intros id; reflexivity. Qed.
Lemma meq_sym a b : meq a b -> meq b a. Proof. intros H id; symmetry; apply H. Qed.
Lemma meq_trans a b c : meq a b -> meq b c -> meq a c. Proof. intros H1 H2 id. rewrite H1. apply H2. Qed.

Lemma put_opt_meq m1 m2 id o : meq m1 m2 -> meq (put_opt m1 id o) (put_opt m2 id o).
Proof.
  intros H id'. destruct o as [e|]; cbn [put_opt].
  - rewrite !lookup_set, H. reflexivity.
  - rewrite !lookup_remove, H. reflexivity.
Qed.

Lemma apply_delta_meq m1 m2 d : meq m1 m2 ->
  match apply_delta m1 d, apply_delta m2 d with
  | inl e1, inl e2 => e1 = e2
  | inr r1, inr r2 => meq r1 r2
  | _, _ => False
  end.
Proof.
  intros H. rewrite !apply_delta_eq, (H (d_id d)). destruct (delta_step _ d); auto. apply put_opt_meq; auto.
Qed.

Lemma apply_deltas_meq ds : forall m1 m2 last, meq m1 m2 ->
  match apply_deltas m1 last ds, apply_deltas m2 last ds with
  | inl e1, inl e2 => e1 = e2
  | inr r1, inr r2 => meq r1 r2
  | _, _ => False
  end.
Proof.
  induction ds as [|d rest IH]; intros m1 m2 last H; cbn [apply_deltas]; auto.
  destruct (match last with Some l => d_id d <=? l | None => false end); auto.
  pose proof (apply_delta_meq m1 m2 d H) as A.
  destruct (apply_delta m1 d) as [e1|r1], (apply_delta m2 d) as [e2|r2]; auto; try contradiction.
  apply IH; auto.
Qed.

Lemma canon_nodup m : NoDup (ids m) -> NoDup (ids (canon m)).
Proof. intros H. eapply Permutation_NoDup; [apply Permutation_map, Permutation_sym, canon_perm|]. auto. Qed.

Lemma canon_meq m : NoDup (ids m) -> meq (canon m) m.
Proof.
  intros Hn id. pose proof (canon_perm m) as P. pose proof (canon_nodup m Hn) as Hn'.
  destruct (lookup m id) as [e|] eqn:L.
  - assert (In e (canon m)). { eapply Permutation_in; [apply Permutation_sym, P|]. eapply lookup_in; eauto. }
    rewrite <- (lookup_id _ _ _ L). apply in_lookup; auto.
  - destruct (lookup (canon m) id) as [e|] eqn:L2; auto.
    assert (In e m). { eapply Permutation_in; [exact P|]. eapply lookup_in; eauto. }
    apply in_lookup in H; auto. rewrite (lookup_id _ _ _ L2) in H. congruence.
Qed.

Lemma apply_delta_nodup m d m' : NoDup (ids m) -> apply_delta m d = inr m' -> NoDup (ids m').
Proof.
  intros Hn. rewrite apply_delta_eq. destruct (delta_step _ d); [discriminate|].
  intros H; inversion H. apply nodup_put_opt; auto.
Qed.

Lemma apply_deltas_nodup ds : forall m last m', NoDup (ids m) -> apply_deltas m last ds = inr m' -> NoDup (ids m').
Proof.
  induction ds as [|d rest IH]; intros m last m' Hn H; cbn [apply_deltas] in H.
  - inversion H; subst; auto.
  - destruct (match last with Some l => d_id d <=? l | None => false end); [discriminate|].
    destruct (apply_delta m d) as [e|m1] eqn:A; [discriminate|].
    eapply IH; [|exact H]. eapply apply_delta_nodup; eauto.
Qed.

Lemma canon_length m : length (canon m) = length m.
Proof. apply Permutation_length, canon_perm. Qed.
