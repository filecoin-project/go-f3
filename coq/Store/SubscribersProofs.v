(* C09, subscribers: the invariant SInv (no send has blocked; every live subscriber holds the latest certificate or has
   taken it) is kept by every event; the statements of Properties/C09.v read it off after any history. *)
From Coq Require Import ZArith List.
From F3 Require Import Subscribers.
Import ListNotations.
Open Scope Z_scope.

Lemma notify_never_blocks b c : notify b c = (Some c, false).
Proof. destruct b; reflexivity. Qed.

(* the slot holds the latest certificate, or it is empty and the reader has taken the latest one *)
Definition sub_ok (latest : option Z) (s : option sub) : Prop :=
  match s with
  | None => True
  | Some x => match sb_slot x with Some c => latest = Some c | None => sb_seen x = latest end
  end.
Definition SInv (st : sstate) : Prop := ss_blocked st = false /\ Forall (sub_ok (ss_latest st)) (ss_subs st).

Lemma notify_all_spec subs c :
  snd (notify_all subs c) = false /\ Forall (sub_ok (Some c)) (fst (notify_all subs c)) /\
  length (fst (notify_all subs c)) = length subs.
Proof.
  induction subs as [|s subs IH]; cbn [notify_all fold_right]; [repeat split; constructor|].
  destruct IH as (A & B & C). fold (notify_all subs c). destruct s as [x|]; cbn [fst snd].
  - rewrite notify_never_blocks. cbn [fst snd]. rewrite A. repeat split; [constructor; [reflexivity|exact B]|cbn; rewrite C; reflexivity].
  - repeat split; [exact A|constructor; [exact I|exact B]|cbn; rewrite C; reflexivity].
Qed.

Lemma Forall_upd_nth {A} (P : A -> Prop) l k x : Forall P l -> P x -> Forall P (upd_nth l k x).
Proof.
  revert k. induction l as [|h t IH]; intros k Hl Hx; cbn; [constructor|].
  inversion Hl; subst. destruct k; constructor; auto.
Qed.
Lemma Forall_nth_default {A} (P : A -> Prop) l k d : Forall P l -> P d -> P (nth k l d).
Proof. revert k. induction l as [|h t IH]; intros k Hl Hd; destruct k; cbn; auto; inversion Hl; subst; auto. Qed.

Theorem sstep_inv st e : SInv st -> SInv (fst (sstep st e)).
Proof.
  intros (Hb & Hs). destruct e as [|c|k got|k|]; cbn [sstep].
  - split; [exact Hb|]. cbn [fst ss_subs ss_latest]. apply Forall_app. split; [exact Hs|].
    constructor; [|constructor]. cbn. destruct (ss_latest st); reflexivity.
  - destruct (notify_all (ss_subs st) c) as [subs blk] eqn:E. pose proof (notify_all_spec (ss_subs st) c) as (A & B & _).
    rewrite E in A, B. cbn [fst snd] in *. split; [cbn; rewrite Hb, A; reflexivity|exact B].
  - pose proof (Forall_nth_default _ (ss_subs st) k None Hs I) as Hk.
    destruct (nth k (ss_subs st) None) as [x|] eqn:Ek; [|split; assumption].
    cbn in Hk. destruct (sb_slot x) as [c|] eqn:Ec; [|split; assumption].
    split; [exact Hb|]. cbn [fst ss_subs ss_latest]. apply Forall_upd_nth; [exact Hs|]. cbn. symmetry. exact Hk.
  - split; [exact Hb|]. cbn [fst ss_subs ss_latest]. apply Forall_upd_nth; [exact Hs|exact I].
  - split; [exact Hb|]. cbn [fst ss_subs ss_latest]. clear Hs. induction (ss_subs st); cbn; constructor; [exact I|assumption].
Qed.

Theorem srun_inv evs : forall st, SInv st -> SInv (fst (srun st evs)).
Proof.
  induction evs as [|e evs IH]; intros st H; cbn [srun]; [exact H|].
  pose proof (sstep_inv st e H) as H1. destruct (sstep st e) as [st' ok]. specialize (IH st' H1).
  destruct (srun st' evs) as [st'' ok']. exact IH.
Qed.
Lemma SInv0 latest : SInv (ss0 latest).
Proof. split; [reflexivity|constructor]. Qed.

Theorem writers_never_blocked latest evs : ss_blocked (fst (srun (ss0 latest) evs)) = false.
Proof. exact (proj1 (srun_inv evs _ (SInv0 latest))). Qed.

Theorem subscriber_observes_latest latest evs k x :
  let st := fst (srun (ss0 latest) evs) in
  nth k (ss_subs st) None = Some x ->
  match sb_slot x with Some c => ss_latest st = Some c | None => sb_seen x = ss_latest st end.
Proof.
  intros st Hk. pose proof (proj2 (srun_inv evs _ (SInv0 latest))) as Hs. fold st in Hs.
  pose proof (Forall_nth_default _ (ss_subs st) k None Hs I) as H. rewrite Hk in H. exact H.
Qed.

Theorem next_read_is_latest latest evs k x got :
  let st := fst (srun (ss0 latest) evs) in
  nth k (ss_subs st) None = Some x -> snd (sstep st (SRead k got)) = true ->
  (got = -1 /\ sb_seen x = ss_latest st) \/ ss_latest st = Some got.
Proof.
  intros st Hk Hr. pose proof (subscriber_observes_latest latest evs k x Hk) as H. fold st in H.
  cbn [sstep] in Hr. rewrite Hk in Hr. destruct (sb_slot x) as [c|]; cbn [snd] in Hr; apply Z.eqb_eq in Hr.
  - right. rewrite H. f_equal. symmetry. exact Hr.
  - left. split; assumption.
Qed.

(* a lagging subscriber (two puts between its reads) and one that subscribes on a non-empty store *)
Example lagging_subscriber :
  sub_trace_ok None [SSub; SPut 0; SPut 1; SSub; SPut 2; SRead 0 2; SRead 0 (-1); SRead 1 2; SPut 3; SClose 1; SPut 4; SRead 0 4] = true.
Proof. reflexivity. Qed.
