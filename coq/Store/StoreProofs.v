(* The certificate store: invariant, reads and re-opening (C09); crashes between datastore writes (C10); snapshots (C17). *)
From Coq Require Import ZArith List Bool Lia.
From F3 Require Import ListX Table DiffProofs Validate MapEquiv CertStore.
Import ListNotations.
Open Scope Z_scope.

(* Store.Put applies a certificate's delta only when it is non-empty; the importer always does, and an empty delta
   changes nothing *)
Definition step_table (t : table) (c : cert) : derr + table :=
  match c_delta c with [] => inr t | d => apply_diff t d end.

Definition nxt (s : store) : Z := next_of (s_first s) (s_latest s).

(* store invariant, relative to the ghost sequence of power tables tabs(first), tabs(first+1), ...;
   non-empty because get_power_table reads an empty in-memory table as "not loaded yet" *)
Record inv (toks : list (table * Z)) (s : store) (tabs : Z -> table) : Prop := {
  i_freq : 0 < s_freq s;
  i_first : 0 <= s_first s;
  i_notomb : d_tomb (s_ds s) = false /\ d_rawtomb (s_ds s) = false;
  i_firstkey : d_first (s_ds s) = Some (s_first s);
  i_latest : match s_latest s with
             | Some c => d_latest (s_ds s) = Some (c_inst c) /\ d_cert (s_ds s) (c_inst c) = Some c /\ s_first s <= c_inst c
             | None => d_latest (s_ds s) = None
             end;
  i_certs : forall i, s_first s <= i < nxt s -> exists c, d_cert (s_ds s) i = Some c /\ c_inst c = i /\
              step_table (tabs i) c = inr (tabs (i + 1)) /\ cid_token toks (tabs (i + 1)) = c_pt c;
  i_init : d_power (s_ds s) (s_first s) = Some (tabs (s_first s));
  i_ckpt : forall k, s_first s < k <= nxt s -> Z.rem k (s_freq s) = 0 -> d_power (s_ds s) k = Some (tabs k);
  i_pt : s_pt s = tabs (nxt s);
  i_tabs : forall i, s_first s <= i <= nxt s -> NoDup (ids (tabs i)) /\ tabs i <> [] /\ canon (tabs i) = tabs i;
}.

Lemma nxt_ge toks s tabs : inv toks s tabs -> s_first s <= nxt s.
Proof.
  intros I. unfold nxt, next_of. destruct (s_latest s) as [c|] eqn:E; [|lia].
  pose proof (i_latest _ _ _ I) as L. rewrite E in L. lia.
Qed.

Definition repr (m t : table) : Prop := NoDup (ids m) /\ meq m t.

Lemma repr_refl t : NoDup (ids t) -> repr t t.
Proof. intros H. split; [exact H|apply meq_refl]. Qed.

Lemma repr_canon m t : repr m t -> NoDup (ids t) -> canon t = t -> canon m = t.
Proof. intros [Hn He] Ht Hc. rewrite <- Hc. apply canon_ext; auto. Qed.

(* GetPowerTable and the importer fold the deltas over the map and sort once at the end; the invariant
   speaks of the sorted table after every certificate *)
Lemma step_table_repr t c t' m : NoDup (ids t) -> step_table t c = inr t' -> repr m t ->
  exists m1, apply_deltas m None (c_delta c) = inr m1 /\ repr m1 t'.
Proof.
  intros Ht Hs [Hn He]. unfold step_table in Hs. destruct (c_delta c) as [|d0 dr].
  - inversion Hs; subst. exists m. split; [reflexivity|split; auto].
  - unfold apply_diff in Hs. pose proof (apply_deltas_meq (d0 :: dr) m t None He) as Q.
    destruct (apply_deltas t None (d0 :: dr)) as [e|mt] eqn:A; [discriminate|]. inversion Hs; subst.
    destruct (apply_deltas m None (d0 :: dr)) as [e|m1] eqn:B; [contradiction|].
    exists m1. split; auto. split; [exact (apply_deltas_nodup _ _ _ _ Hn B)|].
    eapply meq_trans; [exact Q|]. apply meq_sym, canon_meq. exact (apply_deltas_nodup _ _ _ _ Ht A).
Qed.

Lemma step_table_wf t c t' : NoDup (ids t) -> canon t = t -> step_table t c = inr t' ->
  NoDup (ids t') /\ canon t' = t'.
Proof.
  intros Hn Hc. unfold step_table. destruct (c_delta c) as [|d0 dr]. { intros H; inversion H; subst; auto. }
  unfold apply_diff. destruct (apply_deltas t None (d0 :: dr)) as [e|m] eqn:A; [discriminate|].
  intros H; inversion H; subst. pose proof (apply_deltas_nodup _ _ _ _ Hn A) as Nm.
  split; [apply canon_nodup; auto|]. apply canon_ext; auto.
  - apply canon_nodup; auto.
  - apply canon_meq; auto.
Qed.

Lemma apply_range toks s tabs (I : inv toks s tabs) : forall n start m,
  s_first s <= start -> start + Z.of_nat n <= nxt s -> repr m (tabs start) ->
  exists m', length (range_certs (s_ds s) start n) = n /\
     map c_inst (range_certs (s_ds s) start n) = zseq start n /\
     apply_many m (map c_delta (range_certs (s_ds s) start n)) = inr m' /\ repr m' (tabs (start + Z.of_nat n)).
Proof.
  induction n as [|n IH]; intros start m Hs He Hm.
  - exists m. cbn. replace (start + 0) with start by lia. auto.
  - destruct (i_certs _ _ _ I start ltac:(lia)) as (c & C1 & C2 & C3 & C4).
    pose proof (nxt_ge _ _ _ I) as Hge.
    destruct (step_table_repr _ _ _ m (proj1 (i_tabs _ _ _ I start ltac:(lia))) C3 Hm) as (m1 & S1 & S2).
    destruct (IH (start + 1) m1 ltac:(lia) ltac:(lia) S2) as (m' & R1 & R2 & R3 & R4).
    exists m'. cbn [range_certs]. rewrite C1. cbn [length map apply_many zseq]. rewrite S1, R1, R2, C2.
    replace (start + Z.of_nat (S n)) with (start + 1 + Z.of_nat n) by lia. auto.
Qed.

Lemma range_all toks s tabs (I : inv toks s tabs) start end_ :
  s_first s <= start -> start <= end_ -> end_ < nxt s ->
  exists cs m', get_range (s_ds s) start end_ = (cs, None) /\ map c_inst cs = zseq start (Z.to_nat (end_ - start + 1)) /\
    apply_many (tabs start) (map c_delta cs) = inr m' /\ repr m' (tabs (end_ + 1)).
Proof.
  intros H1 H2 H3. unfold get_range. rewrite (proj2 (Z.ltb_ge end_ start)) by lia.
  set (n := Z.to_nat (end_ - start + 1)).
  destruct (apply_range toks s tabs I n start (tabs start) H1 ltac:(subst n; lia)
              (repr_refl _ (proj1 (i_tabs _ _ _ I start ltac:(lia))))) as (m' & R1 & R2 & R3 & R4).
  exists (range_certs (s_ds s) start n), m'. cbv zeta. rewrite R1, Nat.ltb_irrefl.
  replace (end_ + 1) with (start + Z.of_nat n) by (subst n; lia). auto.
Qed.

(* `pt` is the in-memory latest table: the real one, or empty while the store is being opened *)
Lemma gpt_derivable toks s tabs : inv toks s tabs -> forall pt, pt = [] \/ pt = tabs (nxt s) ->
  forall i, s_first s <= i <= nxt s ->
  get_power_table (s_ds s) (s_first s) (s_freq s) (s_latest s) pt i = inr (tabs i).
Proof.
  intros I pt Hpt i Hi. unfold get_power_table. fold (nxt s).
  rewrite (proj2 (Z.ltb_ge i (s_first s))), (proj2 (Z.ltb_ge (nxt s) i)) by lia.
  destruct ((i =? nxt s) && negb (Nat.eqb (length pt) 0)) eqn:Sh.
  { apply andb_true_iff in Sh. destruct Sh as [E L]. apply Z.eqb_eq in E. subst i.
    destruct Hpt as [->| ->]; [discriminate|reflexivity]. }
  clear Sh. pose proof (i_freq _ _ _ I) as Hf. pose proof (i_first _ _ _ I) as H0.
  set (start := Z.max (i - Z.rem i (s_freq s)) (s_first s)).
  assert (Hrem : 0 <= Z.rem i (s_freq s) < s_freq s) by (apply Z.rem_bound_pos; lia).
  assert (Hst : s_first s <= start <= i) by (subst start; lia).
  (* the starting point is the first instance or a check-point after it: its table is stored *)
  assert (Hp : d_power (s_ds s) start = Some (tabs start)).
  { destruct (Z_le_gt_dec (i - Z.rem i (s_freq s)) (s_first s)).
    - assert (start = s_first s) as -> by (subst start; lia). apply (i_init _ _ _ I).
    - assert (start = i - Z.rem i (s_freq s)) as -> by (subst start; lia).
      apply (i_ckpt _ _ _ I); [lia|].
      rewrite (Z.rem_mod_nonneg i), (Z.rem_mod_nonneg (i - i mod s_freq s)) by (try lia; rewrite <- Z.rem_mod_nonneg; lia).
      rewrite Zminus_mod_idemp_r, Z.sub_diag. reflexivity. }
  rewrite Hp. destruct (Z.eqb_spec start i) as [E|E]. { rewrite E. reflexivity. }
  destruct (range_all toks s tabs I start (i - 1) ltac:(lia) ltac:(lia) ltac:(lia)) as (cs & m' & G1 & G2 & G3 & G4).
  rewrite G1. unfold apply_diffs. rewrite G3. f_equal.
  replace (i - 1 + 1) with i in G4 by lia.
  destruct (i_tabs _ _ _ I i Hi) as (Ti & _ & Tc). apply repr_canon; auto.
Qed.

Theorem power_table_derivable toks s tabs : inv toks s tabs ->
  forall i, s_first s <= i <= nxt s -> store_power s i = inr (tabs i).
Proof. intros I i Hi. unfold store_power. apply (gpt_derivable toks s tabs I); auto. right. apply (i_pt _ _ _ I). Qed.

Definition tabs_upd (tabs : Z -> table) (k : Z) (t : table) : Z -> table := fun i => if i =? k then t else tabs i.

Lemma step_table_eq t c : match c_delta c with [] => inr t | _ => apply_diff t (c_delta c) end = step_table t c.
Proof. unfold step_table. destruct (c_delta c); reflexivity. Qed.

Lemma put_plan_ok toks s c ws npt : put_plan toks s c = PutOk ws npt ->
  c_inst c = nxt s /\ c_chain c <> [] /\ chain_valid (c_chain c) = true /\
  step_table (s_pt s) c = inr npt /\ cid_token toks npt = c_pt c /\ npt <> [] /\
  ws = [WCert (c_inst c) c] ++ (if Z.rem (c_inst c + 1) (s_freq s) =? 0 then [WPower (c_inst c + 1) npt] else []) ++ [WLatest (c_inst c)].
Proof.
  unfold put_plan. fold (nxt s). rewrite step_table_eq. destruct (c_inst c <? s_first s); [discriminate|].
  destruct (c_chain c) as [|b r]; [discriminate|].
  destruct (chain_valid (b :: r)); cbn [negb]; [|discriminate].
  destruct (Z.ltb_spec (nxt s) (c_inst c)); [discriminate|]. destruct (Z.ltb_spec (c_inst c) (nxt s)); [discriminate|].
  destruct (step_table (s_pt s) c) as [e|t]; [discriminate|].
  destruct (Z.eqb_spec (cid_token toks t) (c_pt c)); cbn [negb]; [|discriminate].
  destruct t as [|e0 t']; [discriminate|]. cbn [length Nat.eqb]. intros HH; inversion HH; subst.
  repeat split; auto; try discriminate. lia.
Qed.

Lemma put_writes_spec d i c npt (b : bool) :
  let d' := apply_writes d ([WCert i c] ++ (if b then [WPower (i + 1) npt] else []) ++ [WLatest i]) in
  (forall j, d_cert d' j = if j =? i then Some c else d_cert d j) /\
  (forall j, d_power d' j = if (j =? i + 1) && b then Some npt else d_power d j) /\
  d_latest d' = Some i /\ d_first d' = d_first d /\ d_tomb d' = d_tomb d /\ d_rawtomb d' = d_rawtomb d.
Proof. destruct b; cbn; unfold upd; repeat split; intros; rewrite ?andb_true_r, ?andb_false_r; reflexivity. Qed.

Theorem put_preserves_inv toks s tabs c ws npt :
  inv toks s tabs -> put_plan toks s c = PutOk ws npt ->
  inv toks (fst (put toks s c)) (tabs_upd tabs (nxt s + 1) npt) /\ nxt (fst (put toks s c)) = nxt s + 1.
Proof.
  intros I P. pose proof (put_plan_ok _ _ _ _ _ P) as (Hi & _ & _ & Hst & Hcid & Hne & Hws).
  pose proof (nxt_ge _ _ _ I) as Hge.
  unfold put. rewrite P. cbn [fst].
  assert (Hn : forall d, nxt (mkS d (s_first s) (s_freq s) (Some c) npt) = nxt s + 1).
  { intros d. unfold nxt at 1. unfold next_of at 1. cbn [s_latest s_first]. rewrite Hi. reflexivity. }
  split; [|apply Hn].
  rewrite (i_pt _ _ _ I) in Hst.
  destruct (i_tabs _ _ _ I (nxt s) ltac:(lia)) as (Tn & _ & Tc).
  destruct (step_table_wf _ _ _ Tn Tc Hst) as [Nn Cn].
  subst ws. rewrite Hi.
  destruct (put_writes_spec (s_ds s) (nxt s) c npt (Z.rem (nxt s + 1) (s_freq s) =? 0)) as (Dc & Dp & Dl & Df & Dt & Dr).
  constructor; cbn [s_ds s_first s_freq s_latest s_pt]; rewrite ?Hn; unfold tabs_upd.
  - apply (i_freq _ _ _ I).
  - apply (i_first _ _ _ I).
  - rewrite Dt, Dr. apply (i_notomb _ _ _ I).
  - rewrite Df. apply (i_firstkey _ _ _ I).
  - rewrite Dl, Dc, Hi, Z.eqb_refl. repeat split; auto.
  - intros j Hj. rewrite Dc. destruct (Z.eqb_spec j (nxt s)) as [->|E].
    + exists c. rewrite (proj2 (Z.eqb_neq (nxt s) (nxt s + 1))), Z.eqb_refl by lia. auto.
    + destruct (i_certs _ _ _ I j ltac:(lia)) as (c' & A).
      exists c'. rewrite (proj2 (Z.eqb_neq j (nxt s + 1))), (proj2 (Z.eqb_neq (j + 1) (nxt s + 1))) by lia. exact A.
  - rewrite Dp, (proj2 (Z.eqb_neq (s_first s) (nxt s + 1))) by lia. apply (i_init _ _ _ I).
  - intros k Hk Hr. rewrite Dp. destruct (Z.eqb_spec k (nxt s + 1)) as [->|E].
    + rewrite Hr. reflexivity.
    + apply (i_ckpt _ _ _ I); auto. lia.
  - rewrite Z.eqb_refl. reflexivity.
  - intros j Hj. destruct (Z.eqb_spec j (nxt s + 1)) as [->|E]; [auto|]. apply (i_tabs _ _ _ I). lia.
Qed.

Theorem put_rejects_gap toks s c : nxt s < c_inst c -> s_first s <= c_inst c -> c_chain c <> [] -> chain_valid (c_chain c) = true ->
  put toks s c = (s, Some EGap).
Proof.
  intros H1 H2 H3 H4. unfold put, put_plan. fold (nxt s).
  rewrite (proj2 (Z.ltb_ge (c_inst c) (s_first s))) by lia.
  destruct (c_chain c); [contradiction|]. rewrite H4. cbn [negb].
  rewrite (proj2 (Z.ltb_lt (nxt s) (c_inst c))) by lia. reflexivity.
Qed.

Theorem latest_monotone toks s c : nxt s <= nxt (fst (put toks s c)).
Proof.
  unfold put. destruct (put_plan toks s c) as [e| |ws npt] eqn:P; cbn [fst]; try lia.
  apply put_plan_ok in P. destruct P as (A & _). unfold nxt at 2, next_of. cbn. lia.
Qed.

Theorem range_exact toks s tabs : inv toks s tabs -> forall a b, s_first s <= a -> a <= b -> b < nxt s ->
  exists cs, store_range s a b = (cs, None) /\ map c_inst cs = zseq a (Z.to_nat (b - a + 1)).
Proof.
  intros I a b H1 H2 H3. destruct (range_all toks s tabs I a b H1 H2 H3) as (cs & m' & G1 & G2 & _).
  exists cs. auto.
Qed.

Lemma continue_delete_id d : d_tomb d = false -> d_rawtomb d = false -> continue_delete d = d.
Proof. intros H1 H2. unfold continue_delete. rewrite H1, H2. reflexivity. Qed.

Theorem reopen_identity toks s tabs : inv toks s tabs -> open_store (s_freq s) (s_ds s) = inr s.
Proof.
  intros I. unfold open_store, open_raw. destruct (i_notomb _ _ _ I) as [T1 T2].
  rewrite (continue_delete_id _ T1 T2). pose proof (i_latest _ _ _ I) as L.
  assert (G := gpt_derivable toks s tabs I [] (or_introl eq_refl) (nxt s) ltac:(pose proof (nxt_ge _ _ _ I); lia)).
  rewrite <- (i_pt _ _ _ I) in G. unfold nxt in G.
  destruct (s_latest s) as [c|] eqn:El.
  - destruct L as [L1 [L2 L3]]. rewrite L1, L2, (i_firstkey _ _ _ I). rewrite G. f_equal.
    destruct s; cbn in *; subst; reflexivity.
  - rewrite L, (i_firstkey _ _ _ I). rewrite G. f_equal. destruct s; cbn in *; subst; reflexivity.
Qed.

(* The invariant reads the datastore only in a window: certificates in [first, n), tables in [first, n],
   the scalar keys.  What an interrupted Put leaves behind lies outside it. *)
Record agree (first n : Z) (d d' : dstore) : Prop := {
  a_cert : forall j, first <= j < n -> d_cert d' j = d_cert d j;
  a_power : forall j, first <= j <= n -> d_power d' j = d_power d j;
  a_latest : d_latest d' = d_latest d;
  a_first : d_first d' = d_first d;
  a_tomb : d_tomb d' = d_tomb d;
  a_raw : d_rawtomb d' = d_rawtomb d }.

Definition outside (n : Z) (w : write) : Prop :=
  match w with WCert i _ => n <= i | WPower i _ => n < i | _ => False end.

Lemma agree_writes first n ws : Forall (outside n) ws -> forall d, agree first n d (apply_writes d ws).
Proof.
  induction 1 as [|w ws Hw _ IH]; intros d; cbn. { constructor; auto. }
  destruct (IH (apply_write d w)) as [A B C D E F].
  destruct w; try contradiction; cbn in *; constructor; auto; intros j Hj; [rewrite A|rewrite B]; auto; cbn; unfold upd;
    (destruct (Z.eqb_spec j i); [lia|reflexivity]).
Qed.

Lemma inv_agree toks s tabs d' : inv toks s tabs -> agree (s_first s) (nxt s) (s_ds s) d' ->
  inv toks (mkS d' (s_first s) (s_freq s) (s_latest s) (s_pt s)) tabs.
Proof.
  intros I [Hc Hp Hl Hf Ht Hr]. pose proof (nxt_ge _ _ _ I) as Hge.
  assert (Hn : nxt (mkS d' (s_first s) (s_freq s) (s_latest s) (s_pt s)) = nxt s) by reflexivity.
  constructor; cbn [s_ds s_first s_freq s_latest s_pt]; try rewrite Hn.
  - apply (i_freq _ _ _ I).
  - apply (i_first _ _ _ I).
  - rewrite Ht, Hr. apply (i_notomb _ _ _ I).
  - rewrite Hf. apply (i_firstkey _ _ _ I).
  - pose proof (i_latest _ _ _ I) as L. destruct (s_latest s) as [c|] eqn:E.
    + destruct L as [L1 [L2 L3]]. rewrite Hl. repeat split; auto. rewrite Hc; auto.
      unfold nxt, next_of. rewrite E. lia.
    + rewrite Hl. exact L.
  - intros j Hj. rewrite Hc by auto. apply (i_certs _ _ _ I j Hj).
  - rewrite Hp by lia. apply (i_init _ _ _ I).
  - intros k Hk Hrm. rewrite Hp by lia. apply (i_ckpt _ _ _ I); auto.
  - apply (i_pt _ _ _ I).
  - apply (i_tabs _ _ _ I).
Qed.

Theorem put_crash_atomic toks s tabs c ws npt :
  inv toks s tabs -> put_plan toks s c = PutOk ws npt ->
  forall k, (k <= length ws)%nat ->
  let d' := apply_writes (s_ds s) (firstn k ws) in
  (* the latest certificate is loadable and the reopened store is EITHER the store before ... *)
  ((k < length ws)%nat ->
     let s' := mkS d' (s_first s) (s_freq s) (s_latest s) (s_pt s) in
     open_store (s_freq s) d' = inr s' /\ inv toks s' tabs /\
     (* ... in which case the interrupted operation can be repeated successfully *)
     put_plan toks s' c = PutOk ws npt) /\
  (* ... OR the store after the operation *)
  (k = length ws -> open_store (s_freq s) d' = inr (fst (put toks s c))).
Proof.
  intros I P k Hk d'. split.
  - intros Hlt s'.
    (* all writes but the last (the latest pointer) fall outside the window the invariant reads *)
    assert (I' : inv toks s' tabs).
    { apply inv_agree; auto. apply agree_writes.
      rewrite <- firstn_removelast by exact Hlt. apply Forall_firstn.
      destruct (put_plan_ok _ _ _ _ _ P) as (Hi & _ & _ & _ & _ & _ & ->). rewrite <- Hi.
      destruct (Z.rem _ _ =? 0); cbn [app removelast]; repeat (apply Forall_cons; [cbn; lia|]); apply Forall_nil. }
    (* put_plan does not read the datastore *)
    split; [|split; [exact I'|exact P]].
    apply (reopen_identity toks s' tabs I').
  - intros ->. subst d'. rewrite firstn_all.
    destruct (put_preserves_inv toks s tabs c ws npt I P) as [I2 _].
    pose proof (reopen_identity _ _ _ I2) as R. unfold put in *. rewrite P in *. cbn [fst s_ds s_freq] in *. exact R.
Qed.

Definition fresh (d : dstore) : Prop :=
  d_first d = None /\ d_latest d = None /\ d_tomb d = false /\ d_rawtomb d = false.

Theorem create_inv toks freq d first pt : fresh d -> 0 < freq -> 0 <= first ->
  pt <> [] -> NoDup (ids pt) -> canon pt = pt ->
  exists s, create_store freq d first pt = inr s /\ inv toks s (fun _ => pt) /\ nxt s = first.
Proof.
  intros (F1 & F2 & F3 & F4) Hf H0 Hne Hn Hc. unfold create_store, open_raw.
  destruct pt as [|e0 pt'] eqn:Ep; [contradiction|]. cbn [length Nat.eqb]. rewrite <- Ep in *.
  rewrite (continue_delete_id _ F3 F4), F2, F1.
  eexists. split; [reflexivity|]. split; [|reflexivity].
  constructor; cbn; unfold upd; auto; try (rewrite Z.eqb_refl; reflexivity); try lia.
Qed.

Theorem create_crash_atomic freq d first pt : fresh d -> pt <> [] ->
  forall k, (k < 2)%nat ->
  let d' := apply_writes d (firstn k (create_writes first pt)) in
  (* before the pointer is written the store still reads as "not initialised" ... *)
  open_store freq d' = inl ENotInitialized /\
  (* ... and the interrupted create can be repeated: same initial table, first-instance pointer and handle as a clean create *)
  exists s, create_store freq d' first pt = inr s /\
            (forall j, d_power (s_ds s) j = d_power (apply_writes d (create_writes first pt)) j) /\
            d_first (s_ds s) = Some first /\ s_latest s = None /\ s_pt s = pt.
Proof.
  intros (F1 & F2 & F3 & F4) Hne k Hk d'.
  assert (Hd : fresh d').
  { subst d'. destruct k as [|[|k]]; try lia; cbn; repeat split; auto. }
  destruct Hd as (G1 & G2 & G3 & G4). split.
  - unfold open_store, open_raw. rewrite (continue_delete_id _ G3 G4), G2, G1. reflexivity.
  - unfold create_store, open_raw. destruct pt as [|e0 pt']; [contradiction|]. cbn [length Nat.eqb].
    rewrite (continue_delete_id _ G3 G4), G2, G1. eexists. split; [reflexivity|]. cbn [s_ds s_latest s_pt].
    split; [|split; [|split]]; try reflexivity.
    intros j. subst d'. destruct k as [|[|k]]; try lia; cbn; unfold upd; auto. destruct (j =? first); auto.
Qed.

Theorem wipe_resumed freq d : d_tomb d = true \/ d_rawtomb d = true ->
  continue_delete d = ds_empty /\ open_store freq d = inl ENotInitialized /\
  forall first pt, pt <> [] -> exists s, create_store freq d first pt = inr s /\
       s_ds s = apply_writes ds_empty (create_writes first pt).
Proof.
  intros H.
  assert (E : continue_delete d = ds_empty).
  { unfold continue_delete. destruct (d_rawtomb d); auto. destruct H as [->|H]; [reflexivity|discriminate]. }
  split; auto. split.
  - unfold open_store, open_raw. rewrite E. reflexivity.
  - intros first pt Hne. unfold create_store, open_raw. destruct pt as [|e0 pt']; [contradiction|]. cbn [length Nat.eqb].
    rewrite E. cbn. eexists. split; reflexivity.
Qed.

Theorem export_ok toks s tabs : inv toks s tabs -> forall upto, s_first s <= upto < nxt s ->
  export s upto = inr (mkSnap (s_first s) upto (tabs (s_first s))
                         (range_certs (s_ds s) (s_first s) (Z.to_nat (upto - s_first s + 1)))).
Proof.
  intros I upto Hu. unfold export. pose proof (nxt_ge _ _ _ I) as Hge.
  rewrite (gpt_derivable toks s tabs I (s_pt s) (or_intror (i_pt _ _ _ I)) (s_first s)) by lia.
  destruct (apply_range toks s tabs I (Z.to_nat (upto - s_first s + 1)) (s_first s) (tabs (s_first s)) ltac:(lia) ltac:(lia)
              (repr_refl _ (proj1 (i_tabs _ _ _ I (s_first s) ltac:(lia))))) as (m' & R1 & _).
  rewrite R1, Nat.ltb_irrefl. reflexivity.
Qed.

Section Import.
Variables (toks : list (table * Z)) (s : store) (tabs : Z -> table).

Record imported (d : dstore) (i : Z) : Prop := {
  im_cert : forall j, s_first s <= j < i -> d_cert d j = d_cert (s_ds s) j;
  im_init : d_power d (s_first s) = Some (tabs (s_first s));
  im_ckpt : forall k, s_first s < k <= i -> Z.rem k (s_freq s) = 0 -> d_power d k = Some (tabs k);
  im_rest : d_latest d = None /\ d_first d = Some (s_first s) /\ d_tomb d = false /\ d_rawtomb d = false }.

Lemma import_loop_ok (I : inv toks s tabs) upto (Hup : upto < nxt s) : forall n i d m prev last,
  s_first s <= i -> i + Z.of_nat n = upto + 1 -> repr m (tabs i) ->
  (prev = None \/ prev = Some (cid_token toks (tabs i))) -> imported d i ->
  exists d' m' last',
    import_loop toks (s_freq s) d i upto m prev (range_certs (s_ds s) i n) last = inr (d', m', last') /\
    repr m' (tabs (upto + 1)) /\ (last' = if Nat.eqb n 0 then last else d_cert (s_ds s) upto) /\ imported d' (upto + 1).
Proof.
  induction n as [|n IH]; intros i d m prev last Hi He Hm Hp Hw.
  - exists d, m, last. cbn. replace (upto + 1) with i by lia. auto.
  - destruct (i_certs _ _ _ I i ltac:(lia)) as (c & C1 & C2 & C3 & C4).
    pose proof (nxt_ge _ _ _ I) as Hge.
    destruct (i_tabs _ _ _ I i ltac:(lia)) as (Ti & _). destruct (i_tabs _ _ _ I (i + 1) ltac:(lia)) as (Tn & _ & Tc).
    destruct (step_table_repr _ _ _ m Ti C3 Hm) as (m1 & S1 & S2).
    cbn [range_certs]. rewrite C1. cbn [import_loop]. rewrite C2, Z.eqb_refl, S1, (repr_canon _ _ S2 Tn Tc), C4, Z.eqb_refl.
    rewrite (proj2 (Z.ltb_ge upto i)) by lia. cbn [negb]. rewrite andb_false_r.
    (* the non-recomputing branch: empty delta, same committed table as the predecessor *)
    assert (Hnr : negb ((Z.rem (i + 1) (s_freq s) =? 0) || negb (Nat.eqb (length (c_delta c)) 0) ||
                        match prev with None => true | Some _ => false end) &&
                  negb (match prev with Some p => p =? c_pt c | None => true end) = false).
    { destruct Hp as [->| ->]; [rewrite orb_true_r; reflexivity|].
      destruct (c_delta c) as [|? ?] eqn:Ed; [|rewrite orb_true_r; reflexivity].
      unfold step_table in C3. rewrite Ed in C3. inversion C3 as [C3']. rewrite C3', C4, Z.eqb_refl, andb_false_r. reflexivity. }
    rewrite Hnr.
    edestruct (IH (i + 1)) as (d' & m' & last' & L1 & L2 & L3 & L4); [lia|lia|exact S2|right; rewrite C4; reflexivity| |].
    2: { exists d', m', last'. split; [exact L1|]. split; [exact L2|]. split; [|exact L4].
         rewrite L3. destruct n; cbn [Nat.eqb]; [|reflexivity]. replace upto with i by lia. auto. }
    destruct Hw as [W1 W2 W3 (W4 & W5 & W6 & W7)].
    destruct (Z.eqb_spec (Z.rem (i + 1) (s_freq s)) 0) as [R|R]; constructor; cbn; unfold upd; auto.
    + intros j Hj. destruct (Z.eqb_spec j i) as [->|]; auto. apply W1; lia.
    + rewrite (proj2 (Z.eqb_neq _ _)) by lia. auto.
    + intros k Hk Hr. destruct (Z.eqb_spec k (i + 1)) as [->|]; auto. apply W3; auto; lia.
    + intros j Hj. destruct (Z.eqb_spec j i) as [->|]; auto. apply W1; lia.
    + intros k Hk Hr. apply W3; auto. assert (k <> i + 1) by congruence. lia.
Qed.
End Import.

Theorem import_export_id toks s tabs : inv toks s tabs -> forall upto, s_first s <= upto < nxt s ->
  exists sn d' s',
    export s upto = inr sn /\
    import_snapshot toks (s_freq s) ds_empty None sn = inr d' /\
    open_store (s_freq s) d' = inr s' /\ inv toks s' tabs /\
    s_first s' = s_first s /\ nxt s' = upto + 1 /\
    (forall i, s_first s <= i <= upto -> get s' i = get s i) /\
    (forall i, s_first s <= i <= upto + 1 -> store_power s' i = store_power s i).
Proof.
  intros I upto Hu. pose proof (nxt_ge _ _ _ I) as Hge.
  rewrite (export_ok toks s tabs I upto Hu).
  set (n := Z.to_nat (upto - s_first s + 1)).
  destruct (i_tabs _ _ _ I (s_first s) ltac:(lia)) as (T1 & T2 & T3).
  set (d0 := apply_writes ds_empty (create_writes (s_first s) (tabs (s_first s)))).
  assert (W0 : imported s tabs d0 (s_first s)).
  { constructor; cbn; unfold upd; auto; try (intros; lia). rewrite Z.eqb_refl. reflexivity. }
  destruct (import_loop_ok toks s tabs I upto ltac:(lia) n (s_first s) d0 (tabs (s_first s)) None None
              ltac:(lia) ltac:(subst n; lia) (repr_refl _ T1) (or_introl eq_refl) W0)
    as (d1 & m1 & last1 & L1 & L2 & L3 & [Wc Wi Wk (Wl & Wf & Wt & Wr)]).
  destruct (i_certs _ _ _ I upto ltac:(lia)) as (cu & U1 & U2 & U3 & U4).
  assert (Hn0 : Nat.eqb n 0 = false). { apply Nat.eqb_neq. subst n. lia. }
  rewrite Hn0, U1 in L3. subst last1.
  destruct (i_tabs _ _ _ I (upto + 1) ltac:(lia)) as (Tu & _ & Tuc).
  pose proof (repr_canon _ _ L2 Tu Tuc) as Hcan.
  assert (Hn' : forall d, nxt (mkS d (s_first s) (s_freq s) (Some cu) (tabs (upto + 1))) = upto + 1).
  { intros d. unfold nxt, next_of. cbn. lia. }
  assert (I' : inv toks (mkS (apply_write d1 (WLatest upto)) (s_first s) (s_freq s) (Some cu) (tabs (upto + 1))) tabs).
  { constructor; cbn [s_ds s_first s_freq s_latest s_pt]; rewrite ?Hn'.
    - apply (i_freq _ _ _ I).
    - apply (i_first _ _ _ I).
    - cbn. auto.
    - exact Wf.
    - cbn. rewrite U2, Wc by lia. repeat split; auto. lia.
    - intros j Hj. cbn. rewrite Wc by lia. apply (i_certs _ _ _ I j). lia.
    - exact Wi.
    - intros k Hk Hr. apply Wk; auto.
    - reflexivity.
    - intros j Hj. apply (i_tabs _ _ _ I). lia. }
  eexists _, _, _. split; [reflexivity|]. split.
  { unfold import_snapshot. cbn [sn_first sn_latest sn_init sn_certs].
    assert (Hl : Nat.eqb (length (tabs (s_first s))) 0 = false). { destruct (tabs (s_first s)); [contradiction|reflexivity]. }
    unfold open_or_create, open_raw. rewrite Hl. cbn [continue_delete ds_empty d_rawtomb d_tomb d_latest d_first s_ds].
    fold d0. fold n. rewrite L1. rewrite U2, Z.eqb_refl. cbn [negb]. rewrite Hcan, U4, Z.eqb_refl. reflexivity. }
  split. { apply (reopen_identity _ _ _ I'). }
  split; [exact I'|]. split; [reflexivity|]. split; [apply Hn'|].
  split.
  - intros i Hi. unfold get. cbn. rewrite Wc by lia. reflexivity.
  - intros i Hi. rewrite (power_table_derivable _ _ _ I') by (rewrite Hn'; cbn; lia).
    rewrite (power_table_derivable toks s tabs I) by lia. reflexivity.
Qed.

Definition cert0 : cert := mkCert 0 [] 0 0 [] None [].

(* each accepted certificate commits to the table obtained from all deltas up to and including its own:
   two wrong deltas that cancel each other are refused *)
Lemma import_loop_inr toks freq cs : forall d i latest m prev last d' m' last',
  (prev = None \/ prev = Some (cid_token toks (canon m))) ->
  import_loop toks freq d i latest m prev cs last = inr (d', m', last') ->
  map c_inst cs = zseq i (length cs) /\ (cs <> [] -> i + Z.of_nat (length cs) - 1 <= latest) /\
  apply_many m (map c_delta cs) = inr m' /\
  last' = match cs with [] => last | _ => Some (List.last cs cert0) end /\
  forall k c, nth_error cs k = Some c ->
    exists mk, apply_many m (map c_delta (firstn (S k) cs)) = inr mk /\ cid_token toks (canon mk) = c_pt c.
Proof.
  induction cs as [|c0 rest IH]; intros d i latest m prev last d' m' last' Hp H; cbn [import_loop] in H.
  - inversion H; subst. cbn. repeat split; auto. { intros C; contradiction. } intros [|k]; discriminate.
  - destruct (Z.eqb_spec i (c_inst c0)) as [E1|]; cbn [negb] in H; [|discriminate].
    destruct (Z.ltb_spec latest i) as [|E2]; [discriminate|].
    destruct (apply_deltas m None (c_delta c0)) as [e|m1] eqn:A; [discriminate|].
    set (recompute := (Z.rem (c_inst c0 + 1) freq =? 0) || negb (Nat.eqb (length (c_delta c0)) 0) ||
                      match prev with None => true | Some _ => false end) in *.
    match type of H with (if ?x then _ else _) = _ => destruct x eqn:R1; [discriminate|] end.
    match type of H with (if ?x then _ else _) = _ => destruct x eqn:R2; [discriminate|] end.
    (* recomputed or inherited from an equal predecessor, the committed table is the computed one *)
    assert (Hc0 : cid_token toks (canon m1) = c_pt c0).
    { assert (Rc : recompute = (Z.rem (c_inst c0 + 1) freq =? 0) || negb (Nat.eqb (length (c_delta c0)) 0) ||
                      match prev with None => true | Some _ => false end) by reflexivity.
      clearbody recompute. destruct recompute.
      - cbn [andb] in R1. apply negb_false_iff in R1. apply Z.eqb_eq in R1. exact R1.
      - cbn [negb andb] in R2. apply negb_false_iff in R2.
        symmetry in Rc. apply orb_false_iff in Rc. destruct Rc as [Rc Rp]. apply orb_false_iff in Rc. destruct Rc as [_ Rl].
        apply negb_false_iff in Rl. destruct prev as [p|]; [|discriminate].
        apply Z.eqb_eq in R2. destruct Hp as [Hp|Hp]; [discriminate|]. injection Hp as Hp'.
        assert (c_delta c0 = []) as Ed. { destruct (c_delta c0); [reflexivity|discriminate]. }
        rewrite Ed in A. cbn in A. injection A as A'. rewrite <- A', <- Hp'. exact R2. }
    apply IH in H; [|right; rewrite Hc0; reflexivity]. destruct H as (H1 & H2 & H3 & H4 & H5).
    cbn [map length zseq apply_many]. rewrite A, H1, <- E1. split; auto. split; [|split; [auto|split]].
    + intros _. destruct rest as [|c2 r2]; [cbn; lia|]. specialize (H2 ltac:(discriminate)). cbn [length] in *. lia.
    + rewrite H4. destruct rest; auto.
    + intros [|k] c Hk; cbn [firstn map apply_many]; rewrite A.
      * cbn in Hk. inversion Hk; subst c. exists m1. auto.
      * apply (H5 k c Hk).
Qed.

Lemma last_inst (d0 : cert) : forall cs f c0, map c_inst (c0 :: cs) = zseq f (length (c0 :: cs)) ->
  c_inst (last (c0 :: cs) d0) = f + Z.of_nat (length (c0 :: cs)) - 1.
Proof.
  induction cs as [|c1 r IH]; intros f c0 H.
  - cbn in *. inversion H. lia.
  - change (map c_inst (c0 :: c1 :: r)) with (c_inst c0 :: map c_inst (c1 :: r)) in H.
    change (zseq f (length (c0 :: c1 :: r))) with (f :: zseq (f + 1) (length (c1 :: r))) in H.
    assert (B := f_equal (@tl Z) H). cbn [tl] in B.
    change (last (c0 :: c1 :: r) d0) with (last (c1 :: r) d0).
    rewrite (IH (f + 1) c1 B). cbn [length]. lia.
Qed.

Lemma import_snapshot_inr toks freq d mf sn d' : import_snapshot toks freq d mf sn = inr d' ->
  exists s0 d1 m1 lc,
    import_loop toks freq (s_ds s0) (sn_first sn) (sn_latest sn) (sn_init sn) None (sn_certs sn) None = inr (d1, m1, Some lc) /\
    c_inst lc = sn_latest sn /\ cid_token toks (canon m1) = c_pt lc.
Proof.
  unfold import_snapshot. destruct (match mf with Some _ => _ | None => None end); [discriminate|].
  destruct (open_or_create _ _ _ _) as [e|s0]; [discriminate|].
  destruct (import_loop _ _ _ _ _ _ _ _ _) as [e|[[d1 m1] [lc|]]] eqn:L; try discriminate.
  destruct (Z.eqb_spec (c_inst lc) (sn_latest sn)); cbn [negb]; [|discriminate].
  destruct (Z.eqb_spec (cid_token toks (canon m1)) (c_pt lc)); cbn [negb]; [|discriminate].
  intros _. exists s0, d1, m1, lc. auto.
Qed.

Theorem import_accepts_only_reproducing_deltas toks freq d mf sn d' :
  import_snapshot toks freq d mf sn = inr d' ->
  forall k c, nth_error (sn_certs sn) k = Some c ->
    exists mk, apply_many (sn_init sn) (map c_delta (firstn (S k) (sn_certs sn))) = inr mk /\
               cid_token toks (canon mk) = c_pt c.
Proof.
  intros H. apply import_snapshot_inr in H. destruct H as (s0 & d1 & m1 & lc & L & _).
  apply import_loop_inr in L; [|left; reflexivity]. apply L.
Qed.

Example inv_example :
  let pt := [mkE 1 10 7; mkE 2 5 8] in
  exists s, create_store 2 ds_empty 0 pt = inr s /\ inv [] s (fun _ => pt).
Proof.
  cbn zeta. destruct (create_inv [] 2 ds_empty 0 [mkE 1 10 7; mkE 2 5 8]) as [s [A [B _]]]; try (cbn; repeat split; auto; lia).
  - discriminate.
  - repeat constructor; cbn; intuition discriminate.
  - exists s. auto.
Qed.
