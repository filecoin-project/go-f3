(* Quorum intersection over duplicate-free signer lists, for any non-negative weights. *)
From Coq Require Import ZArith Lia Bool List.
From F3 Require Import ListX QuorumGen QuorumProofs.
Import ListNotations.
Open Scope Z_scope.

(* Spec.psum, wsum, sum_power, sup_total all unfold to sumf *)
Section Sumf.
Context {A : Type} (f : A -> Z).

Definition sumf (l : list A) : Z := fold_right (fun x a => f x + a) 0 l.

Lemma sumf_app l1 l2 : sumf (l1 ++ l2) = sumf l1 + sumf l2.
Proof. induction l1; simpl; lia. Qed.

Lemma sumf_snoc l x : sumf (l ++ [x]) = sumf l + f x.
Proof. rewrite sumf_app. simpl. lia. Qed.

Lemma sumf_filter_split (g : A -> bool) l : sumf l = sumf (filter g l) + sumf (filter (fun x => negb (g x)) l).
Proof. induction l as [|a l IH]; simpl; [lia|]. destruct (g a); simpl; lia. Qed.

Lemma sumf_pos_exists l : 0 < sumf l -> exists x, In x l /\ 0 < f x.
Proof.
  induction l as [|a l IH]; simpl; intros Hp; [lia|].
  destruct (Z_lt_dec 0 (f a)) as [H|H]; [exists a; auto|].
  destruct IH as (x & Hx & Hfx); [lia|]. exists x. auto.
Qed.

Lemma sumf_nonneg l : (forall x, In x l -> 0 <= f x) -> 0 <= sumf l.
Proof.
  induction l as [|a l IH]; simpl; intros H; [lia|].
  pose proof (H a (or_introl eq_refl)). specialize (IH (fun x Hx => H x (or_intror Hx))). lia.
Qed.

Hypothesis f_nonneg : forall x, 0 <= f x.

Lemma sumf_incl_nodup : forall l dom, NoDup l -> incl l dom -> sumf l <= sumf dom.
Proof.
  induction l as [|a l IH]; intros dom Hnd Hi; simpl. { apply sumf_nonneg. intros x _. apply f_nonneg. }
  inversion Hnd as [|? ? Hna Hnd']; subst.
  destruct (in_split a dom (Hi a (or_introl eq_refl))) as (d1 & d2 & ->).
  assert (Hi' : incl l (d1 ++ d2)).
  { intros x Hx. pose proof (Hi x (or_intror Hx)) as Hx'. apply in_app_or in Hx'. apply in_or_app.
    destruct Hx' as [Hx'|[Hx'|Hx']]; [left; exact Hx'|subst; contradiction|right; exact Hx']. }
  specialize (IH _ Hnd' Hi'). rewrite sumf_app in *. simpl. lia.
Qed.
End Sumf.

Lemma sumf_map_ext {A B} (f : B -> Z) (g : A -> Z) (h : A -> B) l :
  (forall x, In x l -> f (h x) = g x) -> sumf f (map h l) = sumf g l.
Proof.
  induction l as [|a l IH]; intros H; simpl; [reflexivity|].
  rewrite (H a) by (left; reflexivity). rewrite IH by (intros x Hx; apply H; right; exact Hx). reflexivity.
Qed.

Lemma existsb_Neqb_In x l : existsb (Nat.eqb x) l = true <-> In x l.
Proof.
  rewrite existsb_exists. split.
  - intros [y [Hy E]]. apply Nat.eqb_eq in E. subst; auto.
  - intros H. exists x. split; auto. apply Nat.eqb_refl.
Qed.

Section Sets.
Variable pw : nat -> Z.
Hypothesis pw_nonneg : forall n, 0 <= pw n.

Fixpoint wsum (l : list nat) : Z := match l with [] => 0 | x :: t => pw x + wsum t end.

Lemma inter_bound committee A B : NoDup A -> NoDup B -> incl A committee -> incl B committee ->
  wsum A + wsum B <= wsum committee + wsum (filter (fun x => existsb (Nat.eqb x) B) A).
Proof.
  intros HA HB IA IB. change wsum with (sumf pw).
  rewrite (sumf_filter_split pw (fun x => existsb (Nat.eqb x) B) A).
  assert (H : sumf pw (filter (fun n => negb (existsb (Nat.eqb n) B)) A ++ B) <= sumf pw committee).
  { apply (sumf_incl_nodup pw pw_nonneg).
    - apply nodup_app; auto. { apply NoDup_filter; auto. }
      intros x Hx Hin. apply filter_In in Hx. destruct Hx as [_ Hx].
      apply negb_true_iff in Hx. apply existsb_Neqb_In in Hin. congruence.
    - intros x Hx. apply in_app_or in Hx. destruct Hx as [Hx|Hx]; auto.
      apply filter_In in Hx. apply IA. apply Hx. }
  rewrite sumf_app in H. lia.
Qed.

Theorem signer_sets_intersect committee A B :
  NoDup committee -> NoDup A -> NoDup B -> incl A committee -> incl B committee ->
  0 <= wsum committee < two62 ->
  isStrongQuorum (wsum A) (wsum committee) = true ->
  isStrongQuorum (wsum B) (wsum committee) = true ->
  3 * wsum (filter (fun x => existsb (Nat.eqb x) B) A) >= wsum committee.
Proof.
  intros _ HA HB IA IB Ht SA SB.
  apply strong_iff in SA; auto. apply strong_iff in SB; auto.
  pose proof (inter_bound committee A B HA HB IA IB) as Hb. lia.
Qed.
End Sets.
