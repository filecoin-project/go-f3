(* C14: whatever bytes come in, a value the reader of a generated codec returns is within the limits of the Go type:
   integers in range, byte strings and lists within the documented limits, fixed arrays of exactly their size, CIDs that
   cid.Cast accepts, big integers of at most 128 encoded bytes. *)
From Coq Require Import ZArith List Bool Lia.
From F3 Require Import ListX Cbor Codec CodecProofs.
Import ListNotations.
Open Scope Z_scope.

Definition bytes_ok (l : list Z) : Prop := Forall (fun b => 0 <= b < 256) l.

Lemma bytes_ok_split n l : bytes_ok l -> bytes_ok (firstn n l) /\ bytes_ok (skipn n l).
Proof. intros H. apply Forall_app. rewrite firstn_skipn. exact H. Qed.

Lemma unbe_bound l : bytes_ok l -> forall acc, 0 <= acc -> 0 <= unbe l acc < (acc + 1) * 256 ^ Z.of_nat (length l).
Proof.
  induction 1 as [|b l Hb _ IH]; intros acc Ha; cbn [unbe length].
  - cbn. lia.
  - rewrite Nat2Z.inj_succ, Z.pow_succ_r by lia. specialize (IH (acc * 256 + b) ltac:(lia)).
    assert (0 < 256 ^ Z.of_nat (length l)) by (apply Z.pow_pos_nonneg; lia). nia.
Qed.
Lemma unbe0_bound l : bytes_ok l -> 0 <= unbe l 0 < 256 ^ Z.of_nat (length l).
Proof. intros H. pose proof (unbe_bound l H 0 ltac:(lia)). lia. Qed.

Lemma dec_arg_ok k minv mt r m n r' : (k <= 8)%nat -> bytes_ok r -> dec_arg k minv mt r = Some (m, n, r') ->
  m = mt /\ 0 <= n < 2 ^ 64 /\ bytes_ok r'.
Proof.
  intros Hk Hr H. unfold dec_arg in H. destruct (Nat.ltb (length r) k) eqn:El; [discriminate|]. apply Nat.ltb_ge in El.
  destruct (unbe (firstn k r) 0 <? minv); [discriminate|]. injection H as <- <- <-.
  destruct (bytes_ok_split k r Hr) as [Hf Hs]. split; [reflexivity|]. split; [|exact Hs].
  pose proof (unbe0_bound (firstn k r) Hf) as B. rewrite firstn_length_le in B by lia.
  assert (256 ^ Z.of_nat k <= 256 ^ 8) by (apply Z.pow_le_mono_r; lia).
  change (256 ^ 8) with (2 ^ 64) in *. lia.
Qed.

Lemma decode_header_ok bs mt n r : bytes_ok bs -> decode_header bs = Some (mt, n, r) ->
  0 <= mt < 8 /\ 0 <= n < 2 ^ 64 /\ bytes_ok r.
Proof.
  intros Hb H. destruct bs as [|b r0]; [discriminate|]. inversion Hb as [|? ? Hb0 Hr0]; subst. cbn [decode_header] in H.
  assert (Hmt : 0 <= b / 32 < 8) by (split; [apply Z.div_pos; lia|apply Z.div_lt_upper_bound; lia]).
  assert (Hlow : 0 <= b mod 32 < 32) by (apply Z.mod_pos_bound; lia).
  pose proof p64.
  destruct (b mod 32 <? 24) eqn:E1.
  { injection H as <- <- <-. apply Z.ltb_lt in E1. repeat split; try lia; assumption. }
  destruct (b mod 32 =? 24); [destruct (dec_arg_ok 1 _ _ _ _ _ _ ltac:(lia) Hr0 H) as (-> & A & B); auto|].
  destruct (b mod 32 =? 25); [destruct (dec_arg_ok 2 _ _ _ _ _ _ ltac:(lia) Hr0 H) as (-> & A & B); auto|].
  destruct (b mod 32 =? 26); [destruct (dec_arg_ok 4 _ _ _ _ _ _ ltac:(lia) Hr0 H) as (-> & A & B); auto|].
  destruct (b mod 32 =? 27); [destruct (dec_arg_ok 8 _ _ _ _ _ _ ltac:(lia) Hr0 H) as (-> & A & B); auto|].
  discriminate.
Qed.

Lemma take_ok n r b r' : 0 <= n -> bytes_ok r -> take n r = Some (b, r') ->
  Z.of_nat (length b) = n /\ bytes_ok b /\ bytes_ok r'.
Proof.
  intros Hn Hr H. unfold take in H. destruct (Z.of_nat (length r) <? n) eqn:El; [discriminate|]. apply Z.ltb_ge in El.
  injection H as <- <-. split; [rewrite firstn_length_le by lia; lia|]. apply bytes_ok_split. exact Hr.
Qed.

Lemma be_min_fuel_len f : forall x acc k, 0 <= x < 256 ^ Z.of_nat k -> (k <= f)%nat ->
  (length (be_min_fuel f x acc) <= k + length acc)%nat.
Proof.
  induction f as [|f IH]; intros x acc k Hx Hk; cbn [be_min_fuel]; [lia|].
  destruct (x <=? 0) eqn:E0; [lia|]. apply Z.leb_gt in E0.
  destruct k as [|k]; [cbn in Hx; lia|]. rewrite Nat2Z.inj_succ, Z.pow_succ_r in Hx by lia.
  specialize (IH (x / 256) ((x mod 256) :: acc) k).
  assert (0 <= x / 256 < 256 ^ Z.of_nat k) by (split; [apply Z.div_pos; lia|apply Z.div_lt_upper_bound; lia]).
  specialize (IH ltac:(assumption) ltac:(lia)). cbn [length] in IH. lia.
Qed.

Lemma big_wf mag (sg : bool) : bytes_ok mag -> Z.of_nat (length mag) + 1 <= big_max ->
  let z := if sg then - unbe mag 0 else unbe mag 0 in
  Z.of_nat (length (big_bytes z)) <= big_max /\ Z.abs z < 256 ^ 136.
Proof.
  intros Hm Hl z. pose proof (unbe0_bound mag Hm) as B. unfold big_max in *.
  assert (Ha : Z.abs z = unbe mag 0) by (subst z; destruct sg; lia).
  split.
  - destruct (Z.eq_dec z 0) as [E|E]; [rewrite E; cbn; lia|]. rewrite big_bytes_nz, Ha by exact E. unfold be_min.
    pose proof (be_min_fuel_len 136 (unbe mag 0) [] (length mag) B ltac:(lia)) as L.
    (* as in CodecProofs.rt_big: no [cbn] around the magnitude bytes *)
    revert L. generalize (be_min_fuel 136 (unbe mag 0) []). intros m L. cbn [length] in *. lia.
  - rewrite Ha. eapply Z.lt_le_trans; [apply B|]. apply Z.pow_le_mono_r; lia.
Qed.

Section Sound.
Variable cid_ok : list Z -> bool.
Notation D := (decode cid_ok).
Notation W := (wfv cid_ok).

Definition Snd (s : schema) : Prop := forall bs v rest, bytes_ok bs -> fst (D s bs) = Some (v, rest) -> W s v /\ bytes_ok rest.

Lemma seqd_sound fs : Forall Snd fs -> forall bs vs rest, bytes_ok bs -> fst (seqd (map D fs) bs) = Some (vs, rest) ->
  wfvs cid_ok fs vs /\ bytes_ok rest.
Proof.
  induction 1 as [|f fs Hf _ IH]; intros bs vs rest Hb H.
  - cbn in H. injection H as <- <-. split; [exact I|exact Hb].
  - cbn [map] in H. rewrite fst_seqd_cons in H. destruct (fst (D f bs)) as [[v r1]|] eqn:E1; [|discriminate].
    destruct (Hf bs v r1 Hb E1) as [Wv Hr1].
    destruct (fst (seqd (map D fs) r1)) as [[vs' r2]|] eqn:E2; [|discriminate]. injection H as <- <-.
    destruct (IH r1 vs' r2 Hr1 E2) as [A B]. split; [split; assumption|exact B].
Qed.
Lemma wfvs_length fs : forall vs, wfvs cid_ok fs vs -> length vs = length fs.
Proof. induction fs as [|f fs IH]; intros [|v vs] H; try contradiction; [reflexivity|]. cbn [length]. f_equal. apply IH, H. Qed.

(* H : Some (a, b) = Some (c, d): substitute c, d *)
Ltac inj2 H :=
  cbn [fst] in H;
  match type of H with Some (?a, ?b) = Some (?c, ?d) =>
    let A := fresh in let B := fresh in assert (A : c = a) by congruence; assert (B : d = b) by congruence; subst c d end.
(* the header read in H succeeded: its parts and bounds *)
Ltac hdr H Hb :=
  match type of H with context [decode_header ?bs] =>
    let E := fresh "Eh" in destruct (decode_header bs) as [[[?mt ?n] ?r]|] eqn:E; [|discriminate H];
    let A := fresh "Hmt" in let B := fresh "Hn" in let C := fresh "Hr" in
    destruct (decode_header_ok _ _ _ _ Hb E) as (A & B & C)
  end.

(* likewise for [take] *)
Ltac tk H Hn Hr :=
  match type of H with context [take ?n ?r] =>
    let E := fresh "Et" in destruct (take n r) as [[?b ?r']|] eqn:E; [|discriminate H];
    let L := fresh "L" in let B := fresh "Bb" in let R := fresh "R" in
    destruct (take_ok _ _ _ _ (proj1 Hn) Hr E) as (L & B & R)
  end.

Theorem decode_sound : forall s, wf_schema s -> Snd s.
Proof.
  pose proof p64 as P64. pose proof p63 as P63.
  induction s as [| | | |m|n| | | |m e IH|fs IH|e IH|e IH] using schema_ind'; intros Hw bs v rest Hb H; cbn [decode] in H.
  - unfold d_uint64 in H. hdr H Hb. destruct (mt =? 0); [|discriminate]. inj2 H. split; [exact Hn|exact Hr].
  - unfold d_uint8 in H. hdr H Hb. destruct (mt =? 0); [|discriminate]. destruct (Z.gtb_spec n 255) as [|Eg]; [discriminate|]. inj2 H. split; [cbn [wfv]; lia|exact Hr].
  - unfold d_int64 in H. hdr H Hb. destruct (mt =? 0).
    + destruct (Z.geb_spec n (2 ^ 63)) as [|Eg]; [discriminate|].
      inj2 H. split; [cbn [wfv]; lia|exact Hr].
    + destruct (mt =? 1); [|discriminate]. destruct (Z.geb_spec n (2 ^ 63)) as [|Eg]; [discriminate|].
      inj2 H. split; [cbn [wfv]; lia|exact Hr].
  - unfold d_bool in H. hdr H Hb. destruct (mt =? 7); [|discriminate].
    destruct (n =? 20); [inj2 H; split; [exact I|exact Hr]|].
    destruct (n =? 21); [inj2 H; split; [exact I|exact Hr]|discriminate].
  - unfold d_bytes in H. hdr H Hb. destruct (Z.gtb_spec n m) as [|Eg]; [discriminate|].
    destruct (negb (mt =? 2)); [discriminate|]. tk H Hn Hr. inj2 H. split; [cbn [wfv]; lia|exact R].
  - unfold d_fixed in H. hdr H Hb. destruct (n0 >? n); [discriminate|]. destruct (negb (mt =? 2)); [discriminate|].
    destruct (negb (n0 =? n)) eqn:En; [discriminate|]. apply negb_false_iff, Z.eqb_eq in En. subst n0.
    tk H Hn Hr. inj2 H. split; [exact L|exact R].
  - unfold d_cid in H. hdr H Hb. destruct (negb (mt =? 6)); [discriminate|]. destruct (negb (n =? 42)); [discriminate|].
    destruct (decode_header r) as [[[mt2 n2] r2]|] eqn:E2; [|discriminate].
    destruct (decode_header_ok _ _ _ _ Hr E2) as (_ & Hn2 & Hr2).
    destruct (negb (mt2 =? 2)); [discriminate|]. destruct (Z.gtb_spec n2 cid_max) as [|Eg]; [discriminate|].
    tk H Hn2 Hr2.
    destruct b as [|p [|x c]]; try discriminate. destruct (negb (p =? 0)); [discriminate|].
    destruct (cid_ok (x :: c)) eqn:Ec; [|discriminate]. inj2 H.
    split; [|exact R]. cbn [wfv]. split; [exact Ec|]. split; [discriminate|]. cbn [length] in *. lia.
  - unfold d_big in H. hdr H Hb. destruct (negb (mt =? 2)); [discriminate|].
    destruct (n =? 0).
    + inj2 H. split; [|exact Hr]. cbn [wfv]. split; [unfold big_max; cbn; lia|]. change (Z.abs 0) with 0. apply Z.pow_pos_nonneg; lia.
    + destruct (Z.gtb_spec n big_max) as [|Eg]; [discriminate|].
      tk H Hn Hr.
      destruct b as [|sg mag]; [discriminate|]. assert (Bm : bytes_ok mag) by (inversion Bb; assumption). cbn [length] in L.
      destruct (sg =? 0).
      * inj2 H. split; [|exact R]. apply (big_wf mag false Bm). lia.
      * destruct (sg =? 1); [|discriminate]. inj2 H. split; [|exact R]. apply (big_wf mag true Bm). lia.
  - unfold d_bits in H. hdr H Hb. destruct (Z.gtb_spec n bits_max) as [|Eg]; [discriminate|].
    destruct (negb (mt =? 2)); [discriminate|]. tk H Hn Hr. destruct (bits_ok b) eqn:Eb; [|discriminate].
    inj2 H. split; [cbn [wfv]; split; [lia|exact Eb]|exact R].
  - cbn [wf_schema] in Hw. destruct Hw as [Hm He]. hdr H Hb. destruct (Z.gtb_spec n m) as [|Eg]; [discriminate|].
    destruct (negb (mt =? 4)); [discriminate|]. rewrite fst_wrap_list, rep_seqd, <- (map_repeat D) in H.
    destruct (fst (seqd _ r)) as [[vs r']|] eqn:Er; [|discriminate]. inj2 H.
    assert (HS : Forall Snd (repeat e (Z.to_nat n))) by (apply Forall_forall; intros x Hx; apply repeat_spec in Hx; subst x; exact (IH He)).
    destruct (seqd_sound _ HS _ _ _ Hr Er) as [A R]. split; [|exact R].
    pose proof (wfvs_length _ _ A) as L. rewrite repeat_length in L. apply wfv_list. rewrite L. split; [lia|exact A].
  - cbn [wf_schema] in Hw. destruct Hw as [Hn Hall]. apply wf_tuple_forall in Hall. hdr H Hb.
    destruct (negb (mt =? 4)); [discriminate|]. destruct (negb (n =? Z.of_nat (length fs))); [discriminate|].
    rewrite fst_wrap_list in H. destruct (fst (seqd (map D fs) r)) as [[vs r']|] eqn:Er; [|discriminate]. inj2 H.
    exact (seqd_sound fs (Forall_mp _ _ _ IH Hall) _ _ _ Hr Er).
  - cbn [wf_schema] in Hw. destruct Hw as [_ He]. destruct bs as [|b r]; [discriminate|]. inversion Hb as [|? ? _ Hr]; subst.
    destruct (b =? 246); [inj2 H; split; [exact I|exact Hr]|].
    destruct (D e (b :: r)) as [[[v' r']|] a] eqn:Ed; cbn [fst] in H; [|discriminate]. inj2 H.
    apply (IH He (b :: r) v' r' Hb). rewrite Ed. reflexivity.
  - cbn [wf_schema] in Hw. destruct Hw as [[m [e' ->]] He]. destruct bs as [|b r]; [discriminate|]. inversion Hb as [|? ? _ Hr]; subst.
    destruct (b =? 246).
    + inj2 H. split; [|exact Hr]. cbn [wfv]. cbn [wf_schema] in He. split; [cbn; lia|exact I].
    + exact (IH He (b :: r) v rest Hb H).
Qed.

End Sound.
