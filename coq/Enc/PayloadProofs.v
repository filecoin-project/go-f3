(* C14, signed bytes: what the injectivity theorems of Properties/C14.v are made of *)
From Coq Require Import ZArith List Lia.
From F3 Require Import Payload.
Import ListNotations.
Open Scope Z_scope.

Lemma be_length k x : length (be k x) = k.
Proof. revert x; induction k as [|k IH]; intros x; cbn; [reflexivity|]. rewrite app_length, IH. cbn. lia. Qed.

Lemma be_inj k : forall x y, 0 <= x < 256 ^ Z.of_nat k -> 0 <= y < 256 ^ Z.of_nat k -> be k x = be k y -> x = y.
Proof.
  induction k as [|k IH]; intros x y Hx Hy H.
  - cbn in Hx, Hy. lia.
  - cbn [be] in H. apply app_inj_tail in H. destruct H as [H1 H2].
    rewrite Nat2Z.inj_succ, Z.pow_succ_r in Hx, Hy by lia.
    assert (E : x / 256 = y / 256).
    { apply IH; [| |exact H1]; split; try (apply Z.div_pos; lia); apply Z.div_lt_upper_bound; lia. }
    rewrite (Z.div_mod x 256), (Z.div_mod y 256) by lia. congruence.
Qed.

Lemma app_inv_len {A} (a b c d : list A) : length a = length c -> a ++ b = c ++ d -> a = c /\ b = d.
Proof.
  revert c; induction a as [|x a IH]; intros [|y c] Hl H; cbn in *; try lia; [auto|].
  injection H as -> H. destruct (IH c ltac:(lia) H) as [-> ->]. auto.
Qed.

Lemma be64_split x y a b : 0 <= x < 2 ^ 64 -> 0 <= y < 2 ^ 64 -> be64 x ++ a = be64 y ++ b -> x = y /\ a = b.
Proof.
  intros Hx Hy H. apply app_inv_len in H; [|unfold be64; rewrite !be_length; reflexivity].
  destruct H as [H ->]. split; [exact (be_inj 8 x y Hx Hy H)|reflexivity].
Qed.

Lemma mod64_inj e e' : - 2 ^ 63 <= e < 2 ^ 63 -> - 2 ^ 63 <= e' < 2 ^ 63 -> e mod 2 ^ 64 = e' mod 2 ^ 64 -> e = e'.
Proof.
  intros He He' H. pose proof (Z.div_mod e (2 ^ 64) ltac:(lia)). pose proof (Z.div_mod e' (2 ^ 64) ltac:(lia)).
  pose proof (Z.mod_pos_bound e (2 ^ 64) ltac:(lia)). pose proof (Z.mod_pos_bound e' (2 ^ 64) ltac:(lia)). lia.
Qed.
