(* merkle/merkle.go: Tree (buildTree) and BatchTree over an ABSTRACT hash: digests are terms of the free algebra
   (Zero | Leaf value | Node left right), i.e. keccak256 with the leaf/internal markers is assumed collision-free and
   never zero.  Values are abstract (here: Z tokens of the tipset encodings).  The memo table of BatchTree is not
   modelled: it is keyed by all arguments of the memoised function. *)
From Coq Require Import ZArith List Arith Lia.
Import ListNotations.

Inductive dg := DZ | DL (v : Z) | DN (l r : dg).

(* depth(length) = bits.Len(uint(length) - 1) *)
Definition depth (n : nat) : nat := Nat.log2_up n.

Fixpoint build (d : nat) (vs : list Z) : dg :=
  match vs with
  | [] => DZ
  | v :: _ =>
      match d with
      | O => DL v                       (* the code panics unless exactly one value is left (MerkleProofs assumes it) *)
      | S d' => let split := Nat.min (2 ^ d') (length vs) in
                DN (build d' (firstn split vs)) (build d' (skipn split vs))
      end
  end.
Definition tree (vs : list Z) : dg := build (depth (length vs)) vs.

(* BatchTree: roots.(k) for k = 1..n, each reusing the root of the full left subtree computed earlier *)
Definition slice (vs : list Z) (a b : nat) : list Z := firstn (b - a) (skipn a vs).
Fixpoint batch_roots (vs : list Z) (fuel k : nat) (roots : list dg) : list dg :=
  (* roots holds roots.(1) .. roots.(k-1) *)
  match fuel with
  | O => roots
  | S f =>
      let r := if Nat.eqb k 1 then match vs with v :: _ => DL v | [] => DZ end
               else let split := 2 ^ (depth k - 1) in
                    DN (nth (split - 1) roots DZ) (build (depth k - 1) (slice vs split k)) in
      batch_roots vs f (S k) (roots ++ [r])
  end.
Definition batch_tree (vs : list Z) : list dg := batch_roots vs (length vs) 1 [].
