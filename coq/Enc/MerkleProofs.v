(* C14, chain keys: the batch computation agrees with the direct one for every prefix; the root determines the whole
   list of leaves (content, length and order) as long as the hash is collision-free *)
From Coq Require Import List Arith Lia.
From F3 Require Import Merkle.
Import ListNotations.

Lemma pow2_pos d : 1 <= 2 ^ d. Proof. induction d; cbn; lia. Qed.

(* the hypotheses say that the values fit a tree of depth d, which the code asserts by panicking otherwise *)
Lemma build_inj d : forall vs ws, length vs <= 2 ^ d -> length ws <= 2 ^ d -> build d vs = build d ws -> vs = ws.
Proof.
  induction d as [|d IH]; intros vs ws Hv Hw H.
  - cbn in Hv, Hw. destruct vs as [|v [|? ?]], ws as [|w [|? ?]]; cbn in *; try lia; try discriminate H; [reflexivity|].
    injection H as ->. reflexivity.
  - destruct vs as [|v vs'] eqn:Ev, ws as [|w ws'] eqn:Ew; cbn [build] in H; try discriminate H; [reflexivity|].
    rewrite <- Ev, <- Ew in *. injection H as H1 H2.
    set (s1 := Nat.min (2 ^ d) (length vs)) in *. set (s2 := Nat.min (2 ^ d) (length ws)) in *.
    cbn [Nat.pow] in Hv, Hw.
    apply IH in H1; [|rewrite firstn_length; unfold s1; lia|rewrite firstn_length; unfold s2; lia].
    apply IH in H2; [|rewrite skipn_length; unfold s1; lia|rewrite skipn_length; unfold s2; lia].
    rewrite <- (firstn_skipn s1 vs), <- (firstn_skipn s2 ws). congruence.
Qed.

Fixpoint spine (t : dg) : nat := match t with DN l _ => S (spine l) | _ => 0 end.
Lemma build_spine d : forall vs, vs <> [] -> spine (build d vs) = d.
Proof.
  induction d as [|d IH]; intros vs Hne; destruct vs as [|v vs']; try congruence; [reflexivity|].
  cbn [build spine]. f_equal. apply IH.
  pose proof (pow2_pos d). destruct (Nat.min (2 ^ d) (length (v :: vs'))) eqn:E; [cbn in E; lia|cbn; discriminate].
Qed.

Lemma depth_bound n : 1 <= n -> n <= 2 ^ depth n.
Proof. intros H. unfold depth. destruct (Nat.eq_dec n 1) as [->|]; [cbn; lia|]. apply Nat.log2_up_spec. lia. Qed.

Theorem tree_inj vs ws : tree vs = tree ws -> vs = ws.
Proof.
  unfold tree. intros H.
  destruct vs as [|v vs'] eqn:Ev, ws as [|w ws'] eqn:Ew; try reflexivity.
  - destruct (depth (length (w :: ws'))); cbn in H; discriminate H.
  - destruct (depth (length (v :: vs'))); cbn in H; discriminate H.
  - rewrite <- Ev, <- Ew in *.
    assert (Hd : depth (length vs) = depth (length ws)).
    { rewrite <- (build_spine (depth (length vs)) vs), <- (build_spine (depth (length ws)) ws); [congruence|subst; discriminate|subst; discriminate]. }
    rewrite Hd in H. apply build_inj in H; [exact H| |].
    + rewrite <- Hd. apply depth_bound. subst; cbn; lia.
    + apply depth_bound. subst; cbn; lia.
Qed.

Lemma depth_pow2 d : depth (2 ^ d) = d. Proof. apply Nat.log2_up_pow2. lia. Qed.
Lemma depth_split k : 2 <= k -> 2 ^ (depth k - 1) < k /\ k <= 2 ^ depth k.
Proof. intros H. unfold depth. pose proof (Nat.log2_up_spec k ltac:(lia)) as S. rewrite Nat.sub_1_r. exact S. Qed.

Lemma build_S d l : l <> [] ->
  build (S d) l = DN (build d (firstn (Nat.min (2 ^ d) (length l)) l)) (build d (skipn (Nat.min (2 ^ d) (length l)) l)).
Proof. destruct l; [congruence|reflexivity]. Qed.

Lemma tree_prefix_unfold vs k : 2 <= k -> k <= length vs ->
  tree (firstn k vs) = DN (tree (firstn (2 ^ (depth k - 1)) vs)) (build (depth k - 1) (slice vs (2 ^ (depth k - 1)) k)).
Proof.
  intros Hk Hl. unfold tree.
  destruct (depth_split k Hk) as [H1 H2].
  assert (Hlen : length (firstn k vs) = k) by (rewrite firstn_length; lia).
  assert (Hlen2 : length (firstn (2 ^ (depth k - 1)) vs) = 2 ^ (depth k - 1)) by (rewrite firstn_length; lia).
  rewrite Hlen, Hlen2.
  destruct (depth k) as [|d] eqn:Ed; [cbn in H2; lia|].
  replace (S d - 1) with d in * by lia. rewrite depth_pow2.
  rewrite build_S by (intros E; rewrite E in Hlen; cbn in Hlen; lia).
  rewrite Hlen, Nat.min_l by lia.
  f_equal.
  - rewrite firstn_firstn, Nat.min_l by lia. reflexivity.
  - unfold slice. rewrite skipn_firstn_comm. reflexivity.
Qed.

Lemma batch_roots_spec vs : forall fuel k roots,
  1 <= k -> k + fuel = S (length vs) ->
  length roots = k - 1 -> (forall i, 1 <= i < k -> nth (i - 1) roots DZ = tree (firstn i vs)) ->
  let out := batch_roots vs fuel k roots in
  length out = length vs /\ forall i, 1 <= i <= length vs -> nth (i - 1) out DZ = tree (firstn i vs).
Proof.
  intros fuel; induction fuel as [|f IH]; intros k roots Hk Hf Hl Hr; cbn [batch_roots].
  - cbv zeta. split; [lia|]. intros i Hi. apply Hr. lia.
  - apply IH; try lia.
    + rewrite app_length. cbn. lia.
    + intros i Hi. destruct (Nat.eq_dec i k) as [->|Hne].
      * rewrite app_nth2 by lia. rewrite Hl, Nat.sub_diag. cbn [nth].
        destruct (Nat.eqb k 1) eqn:E1.
        -- apply Nat.eqb_eq in E1. subst k. destruct vs as [|v r]; [cbn in Hf; lia|reflexivity].
        -- apply Nat.eqb_neq in E1. assert (H2 : 2 <= k) by lia.
           rewrite (tree_prefix_unfold vs k H2) by lia. f_equal.
           destruct (depth_split k H2) as [Hs _]. apply Hr. pose proof (pow2_pos (depth k - 1)). lia.
      * rewrite app_nth1 by lia. apply Hr. lia.
Qed.

(* the key computed in batch for the prefix of length i (KeysForPrefixes / AllPrefixes) is the key computed directly *)
Lemma batch_tree_spec vs :
  length (batch_tree vs) = length vs /\ forall i, 1 <= i <= length vs -> nth (i - 1) (batch_tree vs) DZ = tree (firstn i vs).
Proof. apply (batch_roots_spec vs (length vs) 1 [] (le_n 1) eq_refl eq_refl). intros; lia. Qed.

