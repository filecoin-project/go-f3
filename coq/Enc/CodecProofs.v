(* C14, generic codec.  Round trip and truncation are the two halves of [Good] (the reader returns value and rest on the
   encoding, fails on every strict prefix), which composes along concatenation ([good_app]). *)
From Coq Require Import ZArith List Bool Lia.
From F3 Require Import ListX Cbor CborProofs Codec.
Import ListNotations.
Open Scope Z_scope.

Lemma p64 : 2 ^ 64 = 18446744073709551616. Proof. reflexivity. Qed.
Lemma p63 : 2 ^ 63 = 9223372036854775808. Proof. reflexivity. Qed.
Lemma gtb_false a b : a <= b -> (a >? b) = false.
Proof. intros H. rewrite Z.gtb_ltb. apply Z.ltb_ge. exact H. Qed.
Lemma gtb_true a b : b < a -> (a >? b) = true.
Proof. intros H. rewrite Z.gtb_ltb. apply Z.ltb_lt. exact H. Qed.
Lemma gtb_le a b : (a >? b) = false -> a <= b.
Proof. rewrite Z.gtb_ltb. apply Z.ltb_ge. Qed.

Definition sprefix (p bs : list Z) : Prop := exists q, q <> [] /\ bs = p ++ q.
Lemma sprefix_nil p : ~ sprefix p [].
Proof. intros (q & Hq & E). destruct p, q; try discriminate. congruence. Qed.
Lemma sprefix_app p a b : sprefix p (a ++ b) -> sprefix p a \/ exists t, p = a ++ t /\ sprefix t b.
Proof.
  intros (q & Hq & E). symmetry in E. apply app_eq_app in E. destruct E as [t [[-> ->]|[-> ->]]].
  - right. exists t. split; [reflexivity|]. exists q. auto.
  - destruct t as [|x t].
    + right. exists []. rewrite !app_nil_r. split; [reflexivity|exists b; auto].
    + left. exists (x :: t). split; [discriminate|reflexivity].
Qed.

Lemma take_app (b rest : list Z) : take (Z.of_nat (length b)) (b ++ rest) = Some (b, rest).
Proof.
  unfold take. rewrite app_length, Nat2Z.inj_add, (proj2 (Z.ltb_ge _ _)) by lia.
  rewrite Nat2Z.id, firstn_app, Nat.sub_diag, firstn_O, app_nil_r, firstn_all2, skipn_app, Nat.sub_diag, skipn_all2 by lia.
  reflexivity.
Qed.
Lemma take_short (b t : list Z) : sprefix t b -> take (Z.of_nat (length b)) t = None.
Proof.
  intros (q & Hq & ->). unfold take. destruct q; [congruence|].
  rewrite app_length, (proj2 (Z.ltb_lt _ _)) by (cbn [length]; lia). reflexivity.
Qed.

Definition Good {V} (p : list Z -> option (V * list Z)) (bs : list Z) (v : V) : Prop :=
  (forall rest, p (bs ++ rest) = Some (v, rest)) /\ (forall q, sprefix q bs -> p q = None).
Definition pmap {V W} (f : V -> W) (p : list Z -> option (V * list Z)) (bs : list Z) : option (W * list Z) :=
  match p bs with Some (v, r) => Some (f v, r) | None => None end.

Lemma good_nil {V} (p : list Z -> option (V * list Z)) v : (forall r, p r = Some (v, r)) -> Good p [] v.
Proof. intros H. split; [exact H|]. intros q Hq. destruct (sprefix_nil _ Hq). Qed.
Lemma good_map {V W} (f : V -> W) p b v : Good p b v -> Good (pmap f p) b (f v).
Proof. intros [H1 H2]. split; [intros r|intros q Hq]; unfold pmap; [rewrite H1|rewrite H2 by exact Hq]; reflexivity. Qed.
Lemma good_app {V} (p k : list Z -> option (V * list Z)) a b v :
  (forall q, sprefix q a -> p q = None) -> (forall r, p (a ++ r) = k r) -> Good k b v -> Good p (a ++ b) v.
Proof.
  intros Ha Hk [Hrt Htr]. split.
  - intros rest. rewrite <- app_assoc, Hk. apply Hrt.
  - intros q Hq. apply sprefix_app in Hq. destruct Hq as [Hq|(t & -> & Ht)]; [apply Ha; exact Hq|rewrite Hk; apply Htr; exact Ht].
Qed.
Lemma good_hdr {V} (p k : list Z -> option (V * list Z)) mt n b v : 0 <= n < 2 ^ 64 ->
  (forall q, decode_header q = None -> p q = None) -> (forall r, p (encode_header mt n ++ r) = k r) ->
  Good k b v -> Good p (encode_header mt n ++ b) v.
Proof.
  intros Hn H0 Hk. apply good_app; [|exact Hk]. intros q (t & Ht & E). apply H0. exact (hdr_trunc mt n q t Hn Ht E).
Qed.
Lemma good_hdr0 {V} (p : list Z -> option (V * list Z)) mt n v : 0 <= n < 2 ^ 64 ->
  (forall q, decode_header q = None -> p q = None) -> (forall r, p (encode_header mt n ++ r) = Some (v, r)) ->
  Good p (encode_header mt n) v.
Proof. intros Hn H0 Hk. rewrite <- (app_nil_r (encode_header mt n)). apply (good_hdr p (fun r => Some (v, r))); auto using good_nil. Qed.
Lemma good_take {V} n b (g : list Z -> list Z -> option (V * list Z) * list Z) a v :
  Z.of_nat (length b) = n -> (forall r, fst (g b r) = Some (v, r)) ->
  Good (fun r => fst (match take n r with None => (None, a) | Some (b', r') => g b' r' end)) b v.
Proof.
  intros <- Hg. split.
  - intros rest. rewrite take_app. apply Hg.
  - intros q Hq. rewrite (take_short b q Hq). reflexivity.
Qed.

Lemma fst_seqd_cons d ds bs :
  fst (seqd (d :: ds) bs) =
  match fst (d bs) with
  | None => None
  | Some (v, r1) => match fst (seqd ds r1) with None => None | Some (vs, r2) => Some (v :: vs, r2) end
  end.
Proof.
  cbn [seqd]. destruct (d bs) as [[[v r1]|] a]; cbn [fst]; [|reflexivity].
  destruct (seqd ds r1) as [[[vs r2]|] a2]; reflexivity.
Qed.
Lemma rep_seqd d k : forall bs, rep d k bs = seqd (repeat d k) bs.
Proof.
  induction k as [|k IH]; intros bs; cbn [rep repeat seqd]; [reflexivity|].
  destruct (d bs) as [[[v r1]|] a]; [rewrite IH|]; reflexivity.
Qed.
Lemma enc_all_seq (f : value -> option (list Z)) vs : enc_all f vs = enc_seq (repeat f (length vs)) vs.
Proof. induction vs as [|v vs IH]; cbn [enc_all enc_seq repeat length]; [reflexivity|rewrite IH; reflexivity]. Qed.
Lemma fst_wrap_list x r :
  fst (wrap_list x r) = match fst r with None => None | Some (vs, rest) => Some (VList vs, rest) end.
Proof. destruct r as [[[vs rest]|] a]; reflexivity. Qed.

Lemma good_cons (d : list Z -> dret) ds b bs v vs :
  Good (fun x => fst (d x)) b v -> Good (fun x => fst (seqd ds x)) bs vs ->
  Good (fun x => fst (seqd (d :: ds) x)) (b ++ bs) (v :: vs).
Proof.
  intros [H1 H2] G. apply (good_app _ (pmap (cons v) (fun x => fst (seqd ds x)))).
  - intros q Hq. rewrite fst_seqd_cons, H2 by exact Hq. reflexivity.
  - intros r. rewrite fst_seqd_cons, H1. reflexivity.
  - apply good_map. exact G.
Qed.

Lemma unbe_be_min_fuel f : forall x acc, 0 <= x < 256 ^ Z.of_nat f -> unbe (be_min_fuel f x acc) 0 = unbe acc x.
Proof.
  induction f as [|f IH]; intros x acc Hx.
  - cbn in Hx. cbn [be_min_fuel]. replace x with 0 by lia. reflexivity.
  - cbn [be_min_fuel]. destruct (Z.leb_spec x 0).
    + replace x with 0 by lia. reflexivity.
    + rewrite Nat2Z.inj_succ, Z.pow_succ_r in Hx by lia.
      rewrite IH by (split; [apply Z.div_pos; lia|apply Z.div_lt_upper_bound; lia]).
      cbn [unbe]. f_equal. pose proof (Z.div_mod x 256 ltac:(lia)). lia.
Qed.
Lemma unbe_be_min x : 0 <= x < 256 ^ 136 -> unbe (be_min x) 0 = x.
Proof. intros H. unfold be_min. rewrite unbe_be_min_fuel; [reflexivity|exact H]. Qed.
Lemma big_bytes_nz z : z <> 0 -> big_bytes z = (if z <? 0 then 1 else 0) :: be_min (Z.abs z).
Proof. intros Hz. unfold big_bytes. rewrite (proj2 (Z.eqb_neq z 0) Hz). reflexivity. Qed.

Section SchemaInd.
  Variable P : schema -> Prop.
  Hypothesis H1 : P SUint64. Hypothesis H2 : P SUint8. Hypothesis H3 : P SInt64. Hypothesis H4 : P SBool.
  Hypothesis H5 : forall m, P (SBytes m). Hypothesis H6 : forall n, P (SFixed n).
  Hypothesis H7 : P SCid. Hypothesis H8 : P SBigInt. Hypothesis H9 : P SBits.
  Hypothesis H10 : forall m e, P e -> P (SList m e).
  Hypothesis H11 : forall fs, Forall P fs -> P (STuple fs).
  Hypothesis H12 : forall e, P e -> P (SNull e).
  Hypothesis H13 : forall e, P e -> P (SNullDef e).
  Fixpoint schema_ind' (s : schema) : P s :=
    match s with
    | SUint64 => H1 | SUint8 => H2 | SInt64 => H3 | SBool => H4
    | SBytes m => H5 m | SFixed n => H6 n | SCid => H7 | SBigInt => H8 | SBits => H9
    | SList m e => H10 m e (schema_ind' e)
    | STuple fs => H11 fs ((fix go (l : list schema) : Forall P l :=
                              match l with [] => Forall_nil P | f :: r => Forall_cons f (schema_ind' f) (go r) end) fs)
    | SNull e => H12 e (schema_ind' e)
    | SNullDef e => H13 e (schema_ind' e)
    end.
End SchemaInd.

Lemma wf_tuple_forall fs :
  (fix all (l : list schema) : Prop := match l with [] => True | f :: r => wf_schema f /\ all r end) fs <-> Forall wf_schema fs.
Proof.
  induction fs as [|f fs IH]; [split; constructor|]. rewrite IH. split; [intros [Hf Hr]; constructor; assumption|].
  intros H. inversion H; auto.
Qed.

Section Proofs.
Variable cid_ok : list Z -> bool.
Notation E := (encode cid_ok).
Notation D := (decode cid_ok).
Notation W := (wfv cid_ok).

Definition Rt (s : schema) : Prop := forall v, W s v -> exists b, E s v = Some b /\ Good (fun x => fst (D s x)) b v.

Lemma hdr_fail s : match s with SNull _ | SNullDef _ => False | _ => True end ->
  forall q, decode_header q = None -> fst (D s q) = None.
Proof.
  intros Hs q Eq. destruct s; try contradiction; cbn [decode];
    unfold d_uint64, d_uint8, d_int64, d_bool, d_bytes, d_fixed, d_cid, d_big, d_bits; rewrite Eq; reflexivity.
Qed.

Lemma rt_uint64 : Rt SUint64.
Proof.
  intros [z| | | | | |] Hv; try contradiction. cbn [wfv] in Hv. eexists. split.
  - cbn [encode]. rewrite (proj2 (Z.leb_le _ _)), (proj2 (Z.ltb_lt _ _)) by lia. reflexivity.
  - apply good_hdr0; [lia|apply hdr_fail; exact I|].
    intros r. cbn [decode]. unfold d_uint64. rewrite header_roundtrip by lia. reflexivity.
Qed.
Lemma rt_uint8 : Rt SUint8.
Proof.
  pose proof p64. intros [z| | | | | |] Hv; try contradiction. cbn [wfv] in Hv. eexists. split.
  - cbn [encode]. rewrite (proj2 (Z.leb_le _ _)), (proj2 (Z.ltb_lt _ _)) by lia. reflexivity.
  - apply good_hdr0; [lia|apply hdr_fail; exact I|].
    intros r. cbn [decode]. unfold d_uint8. rewrite header_roundtrip, gtb_false by lia. reflexivity.
Qed.
Lemma rt_int64 : Rt SInt64.
Proof.
  pose proof p64. pose proof p63. intros [z| | | | | |] Hv; try contradiction. cbn [wfv] in Hv. eexists. split.
  - cbn [encode]. rewrite (proj2 (Z.leb_le _ _)), (proj2 (Z.ltb_lt _ _)) by lia. reflexivity.
  - cbv beta. destruct (Z.leb_spec 0 z); (apply good_hdr0; [lia|apply hdr_fail; exact I|]);
      intros r; cbn [decode]; unfold d_int64; rewrite header_roundtrip by lia; cbn [Z.eqb Pos.eqb];
      rewrite Z.geb_leb, (proj2 (Z.leb_gt _ _)) by lia; [reflexivity|].
    replace (- 1 - (- z - 1)) with z by lia. reflexivity.
Qed.
Lemma rt_bool : Rt SBool.
Proof.
  intros [|b| | | | |] Hv; try contradiction. eexists. split; [reflexivity|].
  destruct b; [apply (good_hdr0 _ 7 21)|apply (good_hdr0 _ 7 20)]; try lia; try (apply hdr_fail; exact I); reflexivity.
Qed.
Lemma rt_bytes max : 0 <= max < 2 ^ 64 -> Rt (SBytes max).
Proof.
  intros Hm [| |b| | | |] Hv; try contradiction. cbn [wfv] in Hv. eexists. split.
  - cbn [encode]. rewrite gtb_false by exact Hv. reflexivity.
  - eapply good_hdr; [lia|apply hdr_fail; exact I| |].
    + intros r. cbn [decode]. unfold d_bytes. rewrite header_roundtrip, gtb_false by lia. cbn [Z.eqb Pos.eqb negb]. reflexivity.
    + apply good_take; reflexivity.
Qed.
Lemma rt_fixed n : 0 <= n < 2 ^ 64 -> Rt (SFixed n).
Proof.
  intros Hn [| |b| | | |] Hv; try contradiction. cbn [wfv] in Hv. subst n. eexists. split.
  - cbn [encode]. rewrite Z.eqb_refl. reflexivity.
  - eapply good_hdr; [lia|apply hdr_fail; exact I| |].
    + intros r. cbn [decode]. unfold d_fixed. rewrite header_roundtrip, gtb_false by lia. rewrite !Z.eqb_refl. cbn [negb]. reflexivity.
    + apply good_take; reflexivity.
Qed.
Lemma rt_bits : Rt SBits.
Proof.
  pose proof p64. intros [| |b| | | |] Hv; try contradiction. cbn [wfv] in Hv. destruct Hv as [Hl Hb]. unfold bits_max in Hl. eexists. split.
  - cbn [encode]. rewrite gtb_false by exact Hl. reflexivity.
  - eapply good_hdr; [lia|apply hdr_fail; exact I| |].
    + intros r. cbn [decode]. unfold d_bits, bits_max. rewrite header_roundtrip, gtb_false by lia. cbn [Z.eqb Pos.eqb negb]. reflexivity.
    + apply good_take; [reflexivity|]. intros r. rewrite Hb. reflexivity.
Qed.
Lemma rt_cid : Rt SCid.
Proof.
  pose proof p64. intros [| |c| | | |] Hv; try contradiction. cbn [wfv] in Hv. destruct Hv as (Hc & Hne & Hl). unfold cid_max in Hl.
  eexists. split; [cbn [encode]; rewrite Hc; reflexivity|].
  eapply good_hdr; [lia|apply hdr_fail; exact I| |].
  - intros r. cbn [decode]. unfold d_cid. rewrite header_roundtrip by lia. cbn [Z.eqb Pos.eqb negb]. reflexivity.
  - eapply good_hdr; [lia| | |].
    + intros q Eq. rewrite Eq. reflexivity.
    + intros r. rewrite header_roundtrip by lia. unfold cid_max. rewrite gtb_false by lia. cbn [Z.eqb Pos.eqb negb]. reflexivity.
    + apply good_take; [cbn [length]; lia|]. intros r. destruct c; [congruence|]. cbn [Z.eqb negb]. rewrite Hc. reflexivity.
Qed.
Lemma rt_big : Rt SBigInt.
Proof.
  pose proof p64. intros [| | |z| | |] Hv; try contradiction. cbn [wfv] in Hv. destruct Hv as [Hl Ha]. unfold big_max in Hl.
  eexists. split; [cbn [encode]; rewrite gtb_false by exact Hl; reflexivity|]. unfold enc_bytes.
  destruct (Z.eq_dec z 0) as [->|Hz].
  - eapply good_hdr; [cbn; lia|apply hdr_fail; exact I|intros r; reflexivity|apply good_nil; reflexivity].
  - (* generalise the magnitude bytes: simplifying [length] around [be_min] makes the kernel unfold all its fuel *)
    pose proof (unbe_be_min (Z.abs z) (conj (Z.abs_nonneg z) Ha)) as U. rewrite big_bytes_nz in * by exact Hz.
    revert U Hl. generalize (be_min (Z.abs z)). intros m U Hl. cbn [length] in *.
    eapply good_hdr; [lia|apply hdr_fail; exact I| |].
    + intros r. cbn [decode]. unfold d_big, big_max. rewrite header_roundtrip, (proj2 (Z.eqb_neq _ 0)), gtb_false by lia.
      cbn [Z.eqb Pos.eqb negb]. reflexivity.
    + apply good_take; [reflexivity|]. intros r. destruct (Z.ltb_spec z 0); cbn [Z.eqb Pos.eqb fst]; rewrite U; do 3 f_equal; lia.
Qed.

Definition wfvs (fs : list schema) (vs : list value) : Prop := W (STuple fs) (VList vs).
Lemma wfv_list m e vs : W (SList m e) (VList vs) <-> Z.of_nat (length vs) <= m /\ wfvs (repeat e (length vs)) vs.
Proof.
  unfold wfvs. cbn [wfv]. apply and_iff_compat_l.
  induction vs as [|v vs IH]; cbn [length repeat]; [reflexivity|rewrite IH; reflexivity].
Qed.

Lemma rt_seq fs : Forall Rt fs -> forall vs, wfvs fs vs ->
  exists body, enc_seq (map E fs) vs = Some body /\ Good (fun x => fst (seqd (map D fs) x)) body vs.
Proof.
  induction 1 as [|f fs Hf _ IH]; intros [|v vs] Hv; try contradiction.
  - exists []. split; [reflexivity|apply good_nil; reflexivity].
  - destruct Hv as [Hv Hvs]. destruct (Hf v Hv) as (b & Eb & Gb). destruct (IH vs Hvs) as (bs & Ebs & Gbs).
    exists (b ++ bs). cbn [map enc_seq]. rewrite Eb, Ebs. split; [reflexivity|apply good_cons; assumption].
Qed.

Lemma rt_tuple fs : Z.of_nat (length fs) < 2 ^ 64 -> Forall Rt fs -> Rt (STuple fs).
Proof.
  intros Hn IH [| | | |vs| |] Hv; try contradiction. destruct (rt_seq fs IH vs Hv) as (body & Eb & G).
  cbn [encode]. rewrite Eb. eexists. split; [reflexivity|].
  apply (good_hdr _ (pmap VList (fun x => fst (seqd (map D fs) x))) 4); [lia|apply hdr_fail; exact I| |apply good_map; exact G].
  intros r. cbn [decode]. rewrite header_roundtrip, !Z.eqb_refl by lia. cbn [negb]. apply fst_wrap_list.
Qed.
Lemma rt_list m e : 0 <= m < 2 ^ 64 -> Rt e -> Rt (SList m e).
Proof.
  intros Hm IH [| | | |vs| |] Hv; try contradiction. apply wfv_list in Hv. destruct Hv as [Hl Hv].
  assert (IHs : Forall Rt (repeat e (length vs))) by (apply Forall_forall; intros x Hx; apply repeat_spec in Hx; subst x; exact IH).
  destruct (rt_seq _ IHs vs Hv) as (body & Eb & G). rewrite (map_repeat E) in Eb. rewrite (map_repeat D) in G.
  cbn [encode]. rewrite gtb_false, enc_all_seq, Eb by lia. eexists. split; [reflexivity|].
  apply (good_hdr _ (pmap VList (fun x => fst (seqd (repeat (D e) (length vs)) x))) 4); [lia|apply hdr_fail; exact I| |apply good_map; exact G].
  intros r. cbn [decode]. rewrite header_roundtrip, gtb_false by lia. cbn [Z.eqb Pos.eqb negb].
  rewrite Nat2Z.id, fst_wrap_list, rep_seqd. reflexivity.
Qed.

(* an array never starts with the null byte 246, so the null test falls through to the pointee *)
Lemma array_first s v b : array_headed s -> wf_schema s -> E s v = Some b -> exists low r, b = (128 + low) :: r /\ 0 <= low < 28.
Proof.
  intros Ha Hw He. destruct s; try contradiction; destruct v; try discriminate; cbn [encode wf_schema array_headed] in *.
  - destruct (Z.of_nat (length l) >? max) eqn:G; [discriminate|]. apply gtb_le in G. destruct (enc_all (encode cid_ok s) l); [|discriminate].
    injection He as <-. destruct (hdr_first 4 (Z.of_nat (length l)) ltac:(lia)) as (low & r & -> & Hl). exists low, (r ++ l0). auto.
  - destruct (enc_seq (map (encode cid_ok) fs) l); [|discriminate].
    injection He as <-. destruct (hdr_first 4 (Z.of_nat (length fs)) ltac:(lia)) as (low & r & -> & Hl). exists low, (r ++ l0). auto.
Qed.
Lemma good_behind {V} (p p' : list Z -> option (V * list Z)) x r v :
  p' [] = None -> (forall t, p' (x :: t) = p (x :: t)) -> Good p (x :: r) v -> Good p' (x :: r) v.
Proof.
  intros H0 Hp [H1 H2]. split.
  - intros rest. cbn [app]. rewrite Hp. apply (H1 rest).
  - intros [|y q] Hq; [exact H0|]. assert (y = x) by (destruct Hq as (t & _ & Eq); injection Eq; auto). subst y.
    rewrite Hp. apply H2. exact Hq.
Qed.
Lemma first_not_null low : 0 <= low < 28 -> (128 + low =? 246) = false.
Proof. intros H. apply Z.eqb_neq. lia. Qed.

Lemma rt_null e : array_headed e -> wf_schema e -> Rt e -> Rt (SNull e).
Proof.
  intros Ha Hw IH [| | | | | |v] Hv; try contradiction.
  - exists [246]. split; [reflexivity|]. split; [reflexivity|].
    intros [|x q] (t & Ht & Eq); [reflexivity|]. destruct q, t; try discriminate. congruence.
  - destruct (IH v Hv) as (b & Eb & G). exists b. split; [exact Eb|].
    destruct (array_first _ _ _ Ha Hw Eb) as (low & r & -> & Hl). apply (good_map VSome) in G. revert G. apply good_behind; [reflexivity|].
    intros t. cbn [decode]. rewrite first_not_null by exact Hl. unfold pmap. destruct (D e _) as [[[? ?]|] ?]; reflexivity.
Qed.
Lemma rt_nulldef e : array_headed e -> wf_schema e -> Rt e -> Rt (SNullDef e).
Proof.
  intros Ha Hw IH v Hv. destruct (IH v Hv) as (b & Eb & G). exists b. split; [exact Eb|].
  destruct (array_first _ _ _ Ha Hw Eb) as (low & r & -> & Hl). revert G. apply good_behind; [reflexivity|].
  intros t. cbn [decode]. rewrite first_not_null by exact Hl. reflexivity.
Qed.

Theorem roundtrip_all : forall s, wf_schema s -> Rt s.
Proof.
  induction s as [| | | |m|n| | | |m e IH|fs IH|e IH|e IH] using schema_ind'; cbn [wf_schema]; intros Hw.
  - exact rt_uint64.
  - exact rt_uint8.
  - exact rt_int64.
  - exact rt_bool.
  - exact (rt_bytes m Hw).
  - exact (rt_fixed n Hw).
  - exact rt_cid.
  - exact rt_big.
  - exact rt_bits.
  - exact (rt_list m e (proj1 Hw) (IH (proj2 Hw))).
  - destruct Hw as [Hn Hall]. apply wf_tuple_forall in Hall. exact (rt_tuple fs Hn (Forall_mp _ _ _ IH Hall)).
  - exact (rt_null e (proj1 Hw) (proj2 Hw) (IH (proj2 Hw))).
  - destruct Hw as [(m & e' & ->) He]. exact (rt_nulldef (SList m e') I He (IH He)).
Qed.

Theorem codec_roundtrip s v : wf_schema s -> wfv cid_ok s v ->
  exists b, E s v = Some b /\ forall rest, fst (D s (b ++ rest)) = Some (v, rest).
Proof. intros Hw Hv. destruct (roundtrip_all s Hw v Hv) as [b [Eb [Hrt _]]]. exists b. split; assumption. Qed.

Theorem codec_truncated s v b p q : wf_schema s -> wfv cid_ok s v -> E s v = Some b -> q <> [] -> b = p ++ q ->
  fst (D s p) = None.
Proof.
  intros Hw Hv Eb Hq Hb. destruct (roundtrip_all s Hw v Hv) as [b' [Eb' [_ Htr]]]. rewrite Eb in Eb'. injection Eb' as <-.
  apply Htr. exists q. split; assumption.
Qed.

Theorem codec_encode_inj s v1 v2 b : wf_schema s -> wfv cid_ok s v1 -> wfv cid_ok s v2 ->
  E s v1 = Some b -> E s v2 = Some b -> v1 = v2.
Proof.
  intros Hw H1 H2 E1 E2.
  destruct (codec_roundtrip s v1 Hw H1) as [b1 [Eb1 R1]]. destruct (codec_roundtrip s v2 Hw H2) as [b2 [Eb2 R2]].
  rewrite E1 in Eb1. rewrite E2 in Eb2. injection Eb1 as <-. injection Eb2 as <-.
  pose proof (R1 []) as A. pose proof (R2 []) as B. rewrite A in B. congruence.
Qed.

Definition Bounded (L : Z) (l : list Z) : Prop := Forall (fun a => a <= L) l.
Lemma bounded_mono L L' l : L <= L' -> Bounded L l -> Bounded L' l.
Proof. intros H B. eapply Forall_impl; [|exact B]. cbn. intros. lia. Qed.

Lemma seqd_allocs L ds : Forall (fun d => forall bs, Bounded L (snd (d bs))) ds -> forall bs, Bounded L (snd (seqd ds bs)).
Proof.
  induction 1 as [|d ds Hd _ IH]; intros bs; cbn [seqd]; [constructor|].
  pose proof (Hd bs) as B. destruct (d bs) as [[[v r1]|] a]; cbn [snd] in *; [|exact B].
  pose proof (IH r1) as B2. destruct (seqd ds r1) as [[[vs r2]|] a2]; cbn [snd] in *; apply Forall_app; split; assumption.
Qed.
Lemma alloc_limit_field f fs : In f fs -> alloc_limit f <= alloc_limit (STuple fs).
Proof.
  cbn [alloc_limit]. induction fs as [|g fs IH]; intros Hin; [destruct Hin|]. cbn [fold_right].
  destruct Hin as [->|Hin]; [|specialize (IH Hin)]; lia.
Qed.

(* a leaf reader logs nothing, or the one length it has just compared with its limit *)
Ltac alloc_prim :=
  repeat match goal with
         | |- context [match ?x with _ => _ end] => let Hx := fresh "Hx" in destruct x eqn:Hx
         end;
  cbn [snd derr]; repeat constructor;
  repeat match goal with H : (_ >? _) = false |- _ => apply gtb_le in H end;
  try (unfold cid_max, big_max, bits_max in *; lia).

Theorem codec_alloc_bounded : forall s bs, Bounded (alloc_limit s) (snd (D s bs)).
Proof.
  induction s as [| | | |m|n| | | |m e IH|fs IH|e IH|e IH] using schema_ind'; intros bs; cbn [decode].
  1-9: unfold d_uint64, d_uint8, d_int64, d_bool, d_bytes, d_fixed, d_cid, d_big, d_bits; cbn [alloc_limit]; alloc_prim.
  - cbn [alloc_limit]. destruct (decode_header bs) as [[[mt n] r]|]; [|constructor].
    destruct (n >? m) eqn:Hg; [constructor|]. apply gtb_le in Hg. destruct (negb (mt =? 4)); [constructor|].
    assert (B : Bounded (Z.max m (alloc_limit e)) (snd (rep (D e) (Z.to_nat n) r))).
    { rewrite rep_seqd. apply seqd_allocs. apply Forall_forall. intros d Hd. apply repeat_spec in Hd. subst d.
      intros bs'. eapply bounded_mono; [|apply IH]. lia. }
    destruct (rep (D e) (Z.to_nat n) r) as [[[vs rest]|] a]; cbn [wrap_list snd app] in *; (constructor; [lia|exact B]).
  - destruct (decode_header bs) as [[[mt n] r]|]; [|constructor].
    destruct (negb (mt =? 4)); [constructor|]. destruct (negb (n =? Z.of_nat (length fs))); [constructor|].
    assert (B : Bounded (alloc_limit (STuple fs)) (snd (seqd (map D fs) r))).
    { apply seqd_allocs, Forall_map, Forall_forall. intros f Hf bs'. rewrite Forall_forall in IH.
      eapply bounded_mono; [apply alloc_limit_field; exact Hf|apply IH; exact Hf]. }
    destruct (seqd (map D fs) r) as [[[vs rest]|] a]; exact B.
  - destruct bs as [|b r]; [constructor|]. destruct (b =? 246); [constructor|].
    pose proof (IH (b :: r)) as B. destruct (D e (b :: r)) as [[[v r']|] a]; exact B.
  - destruct bs as [|b r]; [constructor|]. destruct (b =? 246); [constructor|]. apply IH.
Qed.

End Proofs.

(* run on the regenerated schemas by Properties/C14.v and C11.v *)
Definition array_headedb (s : schema) : bool :=
  match s with SList _ _ => true | STuple fs => Z.of_nat (length fs) <? 24 | _ => false end.
Fixpoint wf_schemab (s : schema) : bool :=
  match s with
  | SBytes m => (0 <=? m) && (m <? 2 ^ 64)
  | SFixed n => (0 <=? n) && (n <? 2 ^ 64)
  | SList m e => (0 <=? m) && (m <? 2 ^ 64) && wf_schemab e
  | STuple fs => (Z.of_nat (length fs) <? 2 ^ 64) && forallb wf_schemab fs
  | SNull e => array_headedb e && wf_schemab e
  | SNullDef e => match e with SList _ _ => true | _ => false end && wf_schemab e
  | _ => true
  end.
Lemma wf_schemab_sound : forall s, wf_schemab s = true -> wf_schema s.
Proof.
  induction s as [| | | |m|n| | | |m e IH|fs IH|e IH|e IH] using schema_ind'; cbn [wf_schemab wf_schema]; intros H; try exact I;
    repeat (apply andb_true_iff in H; destruct H as [H ?]); rewrite ?Z.leb_le, ?Z.ltb_lt in *.
  - lia.
  - lia.
  - auto with zarith.
  - split; [exact H|]. apply wf_tuple_forall. apply (Forall_mp _ _ _ IH). apply Forall_forall, forallb_forall. assumption.
  - split; [|auto]. destruct e; try discriminate; cbn [array_headedb array_headed] in *; [exact I|apply Z.ltb_lt; exact H].
  - split; [|auto]. destruct e; try discriminate. eexists _, _. reflexivity.
Qed.

(* the codec contract of Wal/WalProofs.v, for any schema *)
Definition enc_of (cid_ok : list Z -> bool) (s : schema) (v : value) : list Z :=
  match encode cid_ok s v with Some b => b | None => [] end.
Definition dec_of (cid_ok : list Z -> bool) (s : schema) (bs : list Z) : option (value * list Z) := fst (decode cid_ok s bs).

Lemma decode_nil cid_ok s : dec_of cid_ok s [] = None.
Proof. destruct s; reflexivity. Qed.

Theorem codec_contract cid_ok s : wf_schema s ->
  (forall v rest, wfv cid_ok s v -> dec_of cid_ok s (enc_of cid_ok s v ++ rest) = Some (v, rest)) /\
  (forall v, wfv cid_ok s v -> enc_of cid_ok s v <> []) /\
  (forall v p q, wfv cid_ok s v -> enc_of cid_ok s v = p ++ q -> q <> [] -> dec_of cid_ok s p = None).
Proof.
  intros Hw. unfold enc_of, dec_of. split; [|split]; intros v; [intros rest Hv|intros Hv Hn|intros p q Hv Ee Hq];
    destruct (roundtrip_all cid_ok s Hw v Hv) as (b & Eb & R & T); rewrite Eb in *.
  - apply R.
  - subst b. specialize (R []). cbn [app] in R. rewrite (decode_nil cid_ok s : fst _ = None) in R. discriminate.
  - apply T. exists q. auto.
Qed.
