(* C14, cbor-gen item headers: every fact about a header comes from [encode_header_spec] *)
From Coq Require Import ZArith List Lia.
From F3 Require Import Payload PayloadProofs Cbor.
Import ListNotations.
Open Scope Z_scope.

Lemma unbe_app a b acc : unbe (a ++ b) acc = unbe b (unbe a acc).
Proof. revert acc; induction a as [|x a IH]; intros acc; cbn; [reflexivity|apply IH]. Qed.
Lemma unbe_be k : forall x acc, 0 <= x < 256 ^ Z.of_nat k -> unbe (be k x) acc = acc * 256 ^ Z.of_nat k + x.
Proof.
  induction k as [|k IH]; intros x acc Hx; cbn [be unbe].
  - cbn in Hx. cbn. lia.
  - rewrite unbe_app. cbn [unbe]. rewrite Nat2Z.inj_succ, Z.pow_succ_r in * by lia.
    rewrite IH by (split; [apply Z.div_pos; lia|apply Z.div_lt_upper_bound; lia]).
    pose proof (Z.div_mod x 256 ltac:(lia)). lia.
Qed.

Lemma dec_arg_be k minv mt n rest :
  0 <= n < 256 ^ Z.of_nat k -> minv <= n -> dec_arg k minv mt (be k n ++ rest) = Some (mt, n, rest).
Proof.
  intros Hn Hm. unfold dec_arg. rewrite app_length, be_length.
  rewrite (proj2 (Nat.ltb_ge _ _)) by lia.
  rewrite firstn_app, be_length, Nat.sub_diag, firstn_O, app_nil_r, firstn_all2 by (rewrite be_length; lia).
  rewrite unbe_be by exact Hn. rewrite Z.mul_0_l, Z.add_0_l, (proj2 (Z.ltb_ge _ _)) by lia.
  rewrite skipn_app, be_length, Nat.sub_diag, skipn_all2 by (rewrite be_length; lia). reflexivity.
Qed.
Lemma dec_arg_short k minv mt r : (length r < k)%nat -> dec_arg k minv mt r = None.
Proof. intros H. unfold dec_arg. rewrite (proj2 (Nat.ltb_lt _ _) H). reflexivity. Qed.

Lemma first_byte mt a : 0 <= a < 32 -> (mt * 32 + a) / 32 = mt /\ (mt * 32 + a) mod 32 = a.
Proof. intros Ha. split; [rewrite Z.div_add_l, Z.div_small; lia|rewrite Z.add_comm, Z.mod_add, Z.mod_small; lia]. Qed.

Lemma encode_header_spec mt n : 0 <= n < 2 ^ 64 ->
  (n < 24 /\ encode_header mt n = [mt * 32 + n]) \/
  exists low k minv, 24 <= low < 28 /\ minv <= n < 256 ^ Z.of_nat k /\
    encode_header mt n = (mt * 32 + low) :: be k n /\
    forall r, decode_header ((mt * 32 + low) :: r) = dec_arg k minv mt r.
Proof.
  intros Hn. unfold encode_header.
  destruct (Z.ltb_spec n 24); [left; auto|right].
  assert (F : forall low, 24 <= low < 28 -> forall r, decode_header ((mt * 32 + low) :: r) =
     if low =? 24 then dec_arg 1 24 mt r else if low =? 25 then dec_arg 2 256 mt r
     else if low =? 26 then dec_arg 4 65536 mt r else dec_arg 8 4294967296 mt r).
  { intros low Hl r. cbn [decode_header]. destruct (first_byte mt low ltac:(lia)) as [-> ->].
    destruct (Z.ltb_spec low 24); [lia|].
    destruct (Z.eqb_spec low 24), (Z.eqb_spec low 25), (Z.eqb_spec low 26), (Z.eqb_spec low 27); try reflexivity; lia. }
  destruct (Z.ltb_spec n 256); [exists 24, 1%nat, 24; repeat split; try lia; apply (F 24); lia|].
  destruct (Z.ltb_spec n 65536); [exists 25, 2%nat, 256; repeat split; try lia; apply (F 25); lia|].
  destruct (Z.ltb_spec n 4294967296); [exists 26, 4%nat, 65536; repeat split; try lia; apply (F 26); lia|].
  exists 27, 8%nat, 4294967296; repeat split; try lia; apply (F 27); lia.
Qed.

Theorem header_roundtrip mt n rest :
  0 <= mt < 8 -> 0 <= n < 2 ^ 64 -> decode_header (encode_header mt n ++ rest) = Some (mt, n, rest).
Proof.
  intros Hm Hn. destruct (encode_header_spec mt n Hn) as [[H ->]|(low & k & minv & Hl & Hb & -> & F)].
  - cbn [app decode_header]. destruct (first_byte mt n ltac:(lia)) as [-> ->]. destruct (Z.ltb_spec n 24); [reflexivity|lia].
  - cbn [app]. rewrite F. apply dec_arg_be; lia.
Qed.

Lemma hdr_trunc mt n p q : 0 <= n < 2 ^ 64 -> q <> [] -> encode_header mt n = p ++ q -> decode_header p = None.
Proof.
  intros Hn Hq E. destruct p as [|b p]; [reflexivity|].
  apply (f_equal (@length Z)) in E as L. rewrite app_length in L. destruct q; [congruence|].
  destruct (encode_header_spec mt n Hn) as [[H E']|(low & k & minv & Hl & Hb & E' & F)]; rewrite E' in *; cbn [length] in L.
  - lia.
  - injection E as <- _. rewrite F. apply dec_arg_short. rewrite be_length in L. lia.
Qed.

Lemma hdr_first mt n : 0 <= n < 2 ^ 64 -> exists low r, encode_header mt n = (mt * 32 + low) :: r /\ 0 <= low < 28.
Proof.
  intros Hn. destruct (encode_header_spec mt n Hn) as [[H ->]|(low & k & minv & Hl & _ & -> & _)];
    eexists _, _; split; try reflexivity; lia.
Qed.
