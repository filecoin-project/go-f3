From Coq Require Import ZArith List Lia.
From F3 Require Import GoInt QuorumGen QuorumProofs ToolingGen Validate Tooling.
Import ListNotations.
Open Scope Z_scope.

(* the certificate-chain generator derives committees by the node's rule *)
Theorem certchain_lookback_eq_node instance lookback initial :
  0 <= initial -> 0 <= lookback -> initial + lookback <= instance < two64 ->
  certchain_uses_cert instance lookback initial = true /\
  node_bootstrap instance lookback initial = false /\
  (* certificates are stored from the initial instance on, so index k holds instance initial + k *)
  initial + certchain_lookback_index instance lookback initial = node_lookback_instance instance lookback initial.
Proof.
  intros Hi Hl Hr. unfold certchain_uses_cert, node_bootstrap, certchain_lookback_index, node_lookback_instance.
  unfold add_u64, sub_u64, two64 in *.
  rewrite (wrap_u64_id (initial + lookback)) by (unfold in_u64, two64; lia).
  rewrite (wrap_u64_id (instance - lookback)) by (unfold in_u64, two64; lia).
  rewrite (wrap_u64_id (instance - lookback - initial)) by (unfold in_u64, two64; lia).
  assert (Z.ltb instance (initial + lookback) = false) as -> by (apply Z.ltb_ge; lia).
  cbn. repeat split; auto. lia.
Qed.

Lemma sum_scaled_spec scaled : forall signers acc pw, sum_scaled scaled signers acc = Some pw ->
  Forall (fun i => i < Z.of_nat (length scaled)) signers /\
  pw = acc + sumZ (map (fun i => nth (Z.to_nat i) scaled 0) signers).
Proof.
  induction signers as [|i r IH]; intros acc pw H; cbn [sum_scaled] in H.
  - inversion H; subst. split; [constructor|]. cbn. lia.
  - destruct (Z.of_nat (length scaled) <=? i) eqn:E; [discriminate|]. apply Z.leb_gt in E.
    apply IH in H. destruct H as [F P]. split; [constructor; auto|]. cbn [map]. unfold sumZ in *. cbn [fold_right]. lia.
Qed.

(* the simulator's oracle: a decision it does not flag is a genuine strong-quorum DECIDE *)
Theorem oracle_sound inst base_head scaled total keys net d : 0 <= total < two62 ->
  validate_decision inst base_head scaled total keys net d = None ->
  j_inst d = inst /\ j_phase d = 5 /\ j_round d = 0 /\
  (exists b rest, j_chain d = b :: rest /\ tipset_eqb base_head b = true) /\
  Forall (fun i => i < Z.of_nat (length scaled)) (j_signers d) /\
  3 * sumZ (map (fun i => nth (Z.to_nat i) scaled 0) (j_signers d)) >= 2 * total /\
  agg_ok keys net d = true.
Proof.
  intros Ht. unfold validate_decision.
  destruct (inst =? j_inst d) eqn:E1; cbn [negb]; [|discriminate]. apply Z.eqb_eq in E1.
  destruct (j_phase d =? 5) eqn:E2; cbn [negb]; [|discriminate]. apply Z.eqb_eq in E2.
  destruct (j_round d =? 0) eqn:E3; cbn [negb]; [|discriminate]. apply Z.eqb_eq in E3.
  destruct (j_chain d) as [|b rest] eqn:E4; [discriminate|].
  destruct (tipset_eqb base_head b) eqn:E5; cbn [negb]; [|discriminate].
  destruct (sum_scaled scaled (j_signers d) 0) as [pw|] eqn:E6; [|discriminate].
  apply sum_scaled_spec in E6. destruct E6 as [F P].
  unfold sim_lacks_quorum. destruct (isStrongQuorum pw total) eqn:Q; cbn [negb]; [|discriminate].
  destruct (agg_ok keys net d) eqn:A; [|discriminate]. intros _.
  apply strong_iff in Q; auto. subst pw.
  repeat split; auto. exists b, rest. auto.
Qed.

(* the form used by the property; a signer index out of range is reported too (OSignerRange) but not stated *)
Theorem oracle_rejects_bad inst base_head scaled total keys net d : 0 <= total < two62 ->
  (j_inst d <> inst \/ j_phase d <> 5 \/ j_round d <> 0 \/ j_chain d = [] \/
   (exists b rest, j_chain d = b :: rest /\ tipset_eqb base_head b = false) \/
   (exists pw, sum_scaled scaled (j_signers d) 0 = Some pw /\ 3 * pw < 2 * total) \/
   agg_ok keys net d = false) ->
  validate_decision inst base_head scaled total keys net d <> None.
Proof.
  intros Ht Hbad Hnone. pose proof (oracle_sound _ _ _ _ _ _ _ Ht Hnone) as (A & B & C & (b & rest & D1 & D2) & E & F & G).
  destruct Hbad as [H|[H|[H|[H|[H|[H|H]]]]]].
  - congruence.
  - congruence.
  - congruence.
  - congruence.
  - destruct H as (b' & r' & H1 & H2). rewrite H1 in D1. inversion D1; subst. congruence.
  - destruct H as (pw & H1 & H2). apply sum_scaled_spec in H1. destruct H1 as [_ H1]. lia.
  - congruence.
Qed.

Lemma rc_some dec : forall l st res, reached_consensus l dec (Some st) = Some res ->
  res = Some st /\ forall p, In p l -> exists c, dec p = Some c /\ chain_eqb c st = true.
Proof.
  induction l as [|x l IH]; intros st res H; cbn [reached_consensus] in H.
  - inversion H; subst. split; auto. intros p [].
  - destruct (dec x) as [c|] eqn:Dx; [|discriminate]. destruct (chain_eqb c st) eqn:E; [|discriminate].
    apply IH in H. destruct H as [H1 H2]. split; auto. intros p [<-|Hp]; [exists c; auto | auto].
Qed.

(* agreement oracle: success means every (non-excluded) member decided and all decisions equal the first *)
Theorem reached_consensus_sound members dec res : members <> [] ->
  reached_consensus members dec None = Some res ->
  exists c0, res = Some c0 /\ forall p, In p members -> exists c, dec p = Some c /\ chain_eqb c c0 = true.
Proof.
  destruct members as [|q r]; [contradiction|]. intros _ H. cbn [reached_consensus] in H.
  destruct (dec q) as [c|] eqn:Dq; [|discriminate]. destruct (chain_eqb c c) eqn:E; [|discriminate].
  apply rc_some in H. destruct H as [H1 H2]. exists c. split; auto.
  intros p [<-|Hp]; [exists c; auto | auto].
Qed.
