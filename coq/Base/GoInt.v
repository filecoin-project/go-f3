(* Go fixed-width integer semantics over Z.  Used by the generated (go2coq) models.
   int64 values are represented by Z in [-2^63, 2^63); uint64 by Z in [0, 2^64).
   Every arithmetic operator wraps exactly like Go; / and % truncate toward zero
   (Z.quot / Z.rem); division by zero is a run-time panic in Go and is modelled by
   the result 0 together with a separate "no division by zero" side condition proved
   where relevant (the generated code never hides it: callers prove divisor <> 0). *)
From Coq Require Import ZArith Lia.
Open Scope Z_scope.

Definition two63 : Z := 9223372036854775808.
Definition two64 : Z := 18446744073709551616.

Definition wrap_u64 (x : Z) : Z := x mod two64.
Definition wrap_i64 (x : Z) : Z := (x + two63) mod two64 - two63.

Definition in_i64 (x : Z) : Prop := - two63 <= x < two63.
Definition in_u64 (x : Z) : Prop := 0 <= x < two64.

Definition add_i64 x y := wrap_i64 (x + y).
Definition sub_i64 x y := wrap_i64 (x - y).
Definition mul_i64 x y := wrap_i64 (x * y).
Definition quo_i64 x y := wrap_i64 (Z.quot x y).
Definition rem_i64 x y := Z.rem x y.

Definition add_u64 x y := wrap_u64 (x + y).
Definition sub_u64 x y := wrap_u64 (x - y).
Definition mul_u64 x y := wrap_u64 (x * y).
Definition quo_u64 x y := Z.quot x y.
Definition rem_u64 x y := Z.rem x y.

(* conversions (Go reinterprets the bit pattern) *)
Definition u64_to_i64 (x : Z) : Z := wrap_i64 x.
Definition i64_to_u64 (x : Z) : Z := wrap_u64 x.

(* math/big through go-state-types/big: unbounded.  go-state-types big.Div is big.Int.Div,
   Euclidean division, modelled by Z.div (the divisors are positive); on non-negative operands
   it coincides with truncated division. *)
Definition big_div (x y : Z) : Z := x / y.
(* big.Int.Int64 : low 64 bits reinterpreted *)
Definition big_int64 (x : Z) : Z := wrap_i64 x.

Lemma wrap_i64_id x : in_i64 x -> wrap_i64 x = x.
Proof.
  unfold in_i64, wrap_i64, two63, two64. intros H.
  rewrite Z.mod_small; lia.
Qed.

Lemma wrap_u64_id x : in_u64 x -> wrap_u64 x = x.
Proof. unfold in_u64, wrap_u64, two64. intros H. rewrite Z.mod_small; lia. Qed.

Lemma wrap_i64_range x : in_i64 (wrap_i64 x).
Proof.
  unfold in_i64, wrap_i64, two63, two64.
  pose proof (Z.mod_pos_bound (x + 9223372036854775808) 18446744073709551616 ltac:(lia)). lia.
Qed.

Lemma wrap_u64_range x : in_u64 (wrap_u64 x).
Proof. unfold in_u64, wrap_u64, two64. apply Z.mod_pos_bound. lia. Qed.

Lemma wrap_i64_small x : - 2 ^ 62 <= x < 2 ^ 62 -> wrap_i64 x = x.
Proof. intros H. apply wrap_i64_id. unfold in_i64, two63. lia. Qed.

Lemma sub_u64_small a b : 0 <= b <= a -> a < two64 -> sub_u64 a b = a - b.
Proof. intros H H2. apply wrap_u64_id. unfold in_u64. lia. Qed.
