From Coq Require Import ZArith List Lia Sorting.Sorted Sorting.Permutation.
Import ListNotations.
Open Scope Z_scope.

(* consecutive integers a, a+1, ..., a+n-1 *)
Fixpoint zseq (a : Z) (n : nat) : list Z :=
  match n with O => [] | S k => a :: zseq (a + 1) k end.

Lemma zseq_length a n : length (zseq a n) = n.
Proof. revert a; induction n; simpl; intros; auto. Qed.

Lemma zseq_in a n x : In x (zseq a n) <-> a <= x < a + Z.of_nat n.
Proof.
  revert a; induction n as [|n IH]; intros a; cbn [zseq In].
  - lia.
  - rewrite IH. lia.
Qed.

Lemma existsb_Zeqb_In x l : existsb (Z.eqb x) l = true <-> In x l.
Proof.
  rewrite existsb_exists. split.
  - intros (y & Hy & E). apply Z.eqb_eq in E. subst. exact Hy.
  - intros H. exists x. split; [exact H|apply Z.eqb_refl].
Qed.

Lemma nodup_app {A} (l1 l2 : list A) :
  NoDup l1 -> NoDup l2 -> (forall x, In x l1 -> In x l2 -> False) -> NoDup (l1 ++ l2).
Proof.
  induction l1 as [|a l1 IH]; cbn; intros H1 H2 Hd; auto. inversion H1; subst. constructor.
  - intros Hin. apply in_app_or in Hin. destruct Hin; [auto|]. eapply Hd; eauto.
  - apply IH; auto. intros x Hx Hy. eapply Hd; eauto.
Qed.

Lemma in_snoc {A} (l : list A) x e : In e (l ++ [x]) <-> In e l \/ e = x.
Proof. rewrite in_app_iff. cbn. intuition. Qed.

Lemma nodup_snoc {A} (l : list A) x : NoDup l -> ~ In x l -> NoDup (l ++ [x]).
Proof. intros. eapply Permutation_NoDup; [apply Permutation_cons_append|]. constructor; auto. Qed.

Lemma option_ext {A} (a b : option A) : (forall s, a = Some s <-> b = Some s) -> a = b.
Proof.
  intros H. destruct a as [x|].
  - symmetry. apply H. reflexivity.
  - destruct b as [y|]; [apply H|]; reflexivity.
Qed.

Lemma nodup_app_l {A} (l1 l2 : list A) : NoDup (l1 ++ l2) -> NoDup l1.
Proof.
  induction l1 as [|a l1 IH]; cbn; intros H; [constructor|]. inversion H; subst. constructor; auto.
  intros Hin. apply H2. apply in_or_app. auto.
Qed.

Lemma Forall_mp {A} (P Q : A -> Prop) l : Forall (fun x => P x -> Q x) l -> Forall P l -> Forall Q l.
Proof. induction 1; intros HP; inversion HP; subst; constructor; auto. Qed.

Lemma map_repeat {A B} (f : A -> B) x k : map f (repeat x k) = repeat (f x) k.
Proof. induction k; cbn; congruence. Qed.

Lemma fold_left_inv {A B} (P : A -> Prop) (g : A -> B -> A) l : (forall a x, P a -> P (g a x)) ->
  forall a, P a -> P (fold_left g l a).
Proof. intros H. induction l; cbn; auto. Qed.

Lemma fold_left_max_spec {A} (f : A -> Z) l : forall a,
  let m := fold_left (fun a x => Z.max a (f x)) l a in
  a <= m /\ (forall e, In e l -> f e <= m) /\ (m = a \/ exists e, In e l /\ f e = m).
Proof.
  induction l as [|x l IH]; intros a; cbn [fold_left].
  - split; [lia|]. split; [intros e []|auto].
  - destruct (IH (Z.max a (f x))) as [I1 [I2 I3]]. split; [lia|]. split.
    + intros e [<-|He]; [lia|auto].
    + destruct I3 as [I3|[e [He Ee]]].
      * destruct (Z_le_gt_dec (f x) a); [left; lia | right; exists x; split; [left; auto|lia]].
      * right. exists e. split; [right; auto|auto].
Qed.

(* the models declare this function under several names, all convertible to it *)
Fixpoint eqb_listZ (a b : list Z) : bool :=
  match a, b with [], [] => true | x :: a', y :: b' => (x =? y) && eqb_listZ a' b' | _, _ => false end.

Lemma eqb_listZ_eq a b : eqb_listZ a b = true <-> a = b.
Proof.
  revert b. induction a as [|x a IH]; destruct b as [|y b]; cbn; try (split; congruence).
  rewrite Bool.andb_true_iff, Z.eqb_eq, IH. split; [intros [-> ->]; auto | intros H; inversion H; auto].
Qed.
Lemma eqb_listZ_refl a : eqb_listZ a a = true.
Proof. apply eqb_listZ_eq; auto. Qed.
Lemma eqb_listZ_neq a b : a <> b -> eqb_listZ a b = false.
Proof. intros H. destruct (eqb_listZ a b) eqn:E; auto. apply eqb_listZ_eq in E. contradiction. Qed.

Lemma Forall_firstn {A} (P : A -> Prop) k l : Forall P l -> Forall P (firstn k l).
Proof. intros H. revert k. induction H; intros [|k]; cbn; auto. Qed.

Section ISort.
  Variables (A : Type) (ltb : A -> A -> bool) (key : A -> Z).
  Fixpoint ins (e : A) (l : list A) : list A :=
    match l with [] => [e] | x :: r => if ltb e x then e :: l else x :: ins e r end.
  Definition isort (l : list A) : list A := fold_right ins [] l.
  Definition ilt (x y : A) : Prop := ltb x y = true.

  Lemma ins_perm e l : Permutation (ins e l) (e :: l).
  Proof.
    induction l as [|x r IH]; cbn; auto. destruct (ltb e x); auto.
    eapply perm_trans; [apply perm_skip, IH|]. apply perm_swap.
  Qed.
  Lemma isort_perm l : Permutation (isort l) l.
  Proof. induction l as [|x r IH]; cbn; auto. eapply perm_trans; [apply ins_perm|]. auto. Qed.
  Lemma isort_in l x : In x (isort l) <-> In x l.
  Proof. split; apply Permutation_in; [|apply Permutation_sym]; apply isort_perm. Qed.

  Hypothesis ltb_trans : forall x y z, ilt x y -> ilt y z -> ilt x z.
  Hypothesis ltb_tri : forall x y, ltb x y = false -> key x <> key y -> ilt y x.
  Hypothesis ltb_asym : forall x y, ilt x y -> ilt y x -> False.

  Lemma ins_sorted e l : StronglySorted ilt l -> ~ In (key e) (map key l) -> StronglySorted ilt (ins e l).
  Proof.
    induction l as [|x r IH]; cbn; intros Hs Hn. { repeat constructor. }
    inversion Hs as [|? ? Hr Hx]; subst. destruct (ltb e x) eqn:E.
    - constructor; auto. constructor; auto. eapply Forall_impl; [|exact Hx]. intros y. apply ltb_trans. exact E.
    - constructor; [apply IH; tauto|].
      rewrite Forall_forall in *. intros y Hy. apply (Permutation_in _ (ins_perm e r)) in Hy.
      destruct Hy as [<-|Hy]; auto.
  Qed.
  Lemma isort_sorted l : NoDup (map key l) -> StronglySorted ilt (isort l).
  Proof.
    induction l as [|x r IH]; cbn; intros Hn; [constructor|]. inversion Hn as [|? ? Hx Hr]; subst.
    apply ins_sorted; auto. intros H. apply Hx.
    eapply Permutation_in; [apply Permutation_map, isort_perm|exact H].
  Qed.

  Lemma sorted_ext l1 : forall l2, StronglySorted ilt l1 -> StronglySorted ilt l2 ->
    (forall x, In x l1 <-> In x l2) -> l1 = l2.
  Proof.
    induction l1 as [|x r IH]; intros [|y r2] S1 S2 Hi; auto.
    - exfalso. apply (Hi y). left; auto.
    - exfalso. apply (Hi x). left; auto.
    - inversion S1 as [|? ? S1' F1]; subst. inversion S2 as [|? ? S2' F2]; subst.
      rewrite Forall_forall in F1, F2.
      (* the heads are both minimal, hence equal; then neither head occurs in the other tail *)
      assert (x = y).
      { destruct (proj2 (Hi y) (or_introl eq_refl)) as [|Hy]; auto.
        destruct (proj1 (Hi x) (or_introl eq_refl)) as [|Hx]; auto.
        exfalso; eauto. }
      subst y. f_equal. apply IH; auto. intros d. split; intros Hd.
      + destruct (proj1 (Hi d) (or_intror Hd)) as [<-|]; auto. exfalso; eauto.
      + destruct (proj2 (Hi d) (or_intror Hd)) as [<-|]; auto. exfalso; eauto.
  Qed.

  Lemma isort_ext l1 l2 : NoDup (map key l1) -> NoDup (map key l2) ->
    (forall x, In x l1 <-> In x l2) -> isort l1 = isort l2.
  Proof.
    intros H1 H2 Hi. apply sorted_ext; try apply isort_sorted; auto.
    intros x. rewrite !isort_in. apply Hi.
  Qed.
End ISort.
Arguments ins {A}. Arguments isort {A}. Arguments ilt {A}.
