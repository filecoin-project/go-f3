From Coq Require Import ZArith List Bool Lia Sorting.Sorted Sorting.Permutation.
From F3 Require Import ListX Table.
Import ListNotations.
Open Scope Z_scope.

Lemma lookup_id t id e : lookup t id = Some e -> e_id e = id.
Proof. induction t as [|x r IH]; cbn; [discriminate|]. destruct (e_id x =? id) eqn:E; auto. intros H; inversion H; subst. apply Z.eqb_eq; auto. Qed.

Lemma lookup_in t id e : lookup t id = Some e -> In e t.
Proof. induction t as [|x r IH]; cbn; [discriminate|]. destruct (e_id x =? id); auto. intros H; inversion H; auto. Qed.

Lemma lookup_none t id : lookup t id = None <-> ~ In id (ids t).
Proof.
  induction t as [|x r IH]; cbn; [tauto|]. destruct (e_id x =? id) eqn:E.
  - apply Z.eqb_eq in E. split; [discriminate|]. intros H. exfalso. apply H. auto.
  - apply Z.eqb_neq in E. rewrite IH. tauto.
Qed.

Lemma in_lookup t e : NoDup (ids t) -> In e t -> lookup t (e_id e) = Some e.
Proof.
  induction t as [|x r IH]; cbn; [tauto|]. intros Hn [->|Hin].
  - rewrite Z.eqb_refl. reflexivity.
  - inversion Hn; subst. destruct (e_id x =? e_id e) eqn:E.
    + apply Z.eqb_eq in E. exfalso. apply H1. rewrite E. apply in_map. exact Hin.
    + auto.
Qed.

Lemma lookup_remove t id id' : lookup (remove t id) id' = if id' =? id then None else lookup t id'.
Proof.
  induction t as [|x r IH]; cbn. { destruct (id' =? id); reflexivity. }
  destruct (Z.eqb_spec (e_id x) id) as [E|E]; cbn; rewrite IH.
  - destruct (Z.eqb_spec id' id); auto. destruct (Z.eqb_spec (e_id x) id'); [congruence|auto].
  - destruct (Z.eqb_spec (e_id x) id'); auto. destruct (Z.eqb_spec id' id); [congruence|auto].
Qed.

Lemma lookup_set t e id' : lookup (set t e) id' = if id' =? e_id e then Some e else lookup t id'.
Proof. unfold set. cbn. rewrite lookup_remove, (Z.eqb_sym (e_id e) id'). destruct (id' =? e_id e); reflexivity. Qed.

Lemma ids_remove_subset t id x : In x (ids (remove t id)) -> In x (ids t) /\ x <> id.
Proof.
  induction t as [|y r IH]; cbn; [tauto|]. destruct (e_id y =? id) eqn:E.
  - intros H. apply IH in H. tauto.
  - cbn. apply Z.eqb_neq in E. intros [<-|H]; [auto|]. apply IH in H. tauto.
Qed.

Lemma nodup_remove t id : NoDup (ids t) -> NoDup (ids (remove t id)).
Proof.
  induction t as [|y r IH]; cbn; auto. intros Hn. inversion Hn; subst. destruct (e_id y =? id); auto.
  cbn. constructor; auto. intros H. apply ids_remove_subset in H. tauto.
Qed.

Lemma forall_remove (P : entry -> Prop) t id : Forall P t -> Forall P (remove t id).
Proof. induction 1; cbn; auto. destruct (e_id x =? id); auto. Qed.

Lemma memZ_false x l : memZ x l = false <-> ~ In x l.
Proof. unfold memZ. rewrite <- existsb_Zeqb_In. destruct (existsb _ l); split; congruence. Qed.

Definition put_opt (m : table) (id : Z) (o : option entry) : table :=
  match o with Some e => set m e | None => remove m id end.
Definition at_id (id : Z) (o : option entry) : Prop := forall e, o = Some e -> e_id e = id.
Definition wf_opt (o : option entry) : Prop := match o with Some e => wf_entry e | None => True end.

Lemma lookup_put_opt m id o id' : at_id id o ->
  lookup (put_opt m id o) id' = if id' =? id then o else lookup m id'.
Proof.
  intros H. destruct o as [e|]; cbn [put_opt].
  - rewrite lookup_set, (H e eq_refl). reflexivity.
  - apply lookup_remove.
Qed.

Lemma nodup_put_opt m id o : NoDup (ids m) -> NoDup (ids (put_opt m id o)).
Proof.
  intros Hn. destruct o as [e|]; cbn [put_opt]; [|apply nodup_remove; auto].
  unfold set. cbn. constructor; [|apply nodup_remove; auto]. intros H. apply ids_remove_subset in H. tauto.
Qed.

Lemma wf_put_opt m id o : wf m -> wf_opt o -> wf (put_opt m id o).
Proof.
  intros [Hn Hw] Ho. split; [apply nodup_put_opt; auto|].
  destruct o as [e|]; cbn [put_opt]; [constructor; auto|]; apply forall_remove; auto.
Qed.

Lemma wf_lookup m id : wf m -> wf_opt (lookup m id) /\ at_id id (lookup m id).
Proof.
  intros [_ Hw]. split.
  - destruct (lookup m id) eqn:E; cbn; auto. eapply Forall_forall; [exact Hw|]. eapply lookup_in; eauto.
  - intros e H. eapply lookup_id; eauto.
Qed.

(* apply_delta reads the table only at the delta's id *)
Definition delta_step (o : option entry) (d : delta) : derr + option entry :=
  if is_zero d then inl DEmpty else
  match o with
  | Some pe =>
      if d_key d =? e_key pe then inl DUnchangedKey else
      let p := if d_dp d =? 0 then e_power pe else d_dp d + e_power pe in
      if negb (d_key d =? 0) && (p =? 0) then inl DRemoveWithKey else
      if p =? 0 then inr None
      else if 0 <? p then inr (Some (mkE (d_id d) p (if negb (d_key d =? 0) then d_key d else e_key pe)))
      else inl DNegative
  | None =>
      if d_dp d <=? 0 then inl DNewNonPositive else
      if d_key d =? 0 then inl DNewNoKey else inr (Some (mkE (d_id d) (d_dp d) (d_key d)))
  end.

Lemma apply_delta_eq m d : apply_delta m d =
  match delta_step (lookup m (d_id d)) d with inl e => inl e | inr t => inr (put_opt m (d_id d) t) end.
Proof.
  unfold apply_delta, delta_step. destruct (is_zero d); auto. destruct (lookup m (d_id d)) as [pe|].
  - destruct (d_key d =? e_key pe); auto. destruct (negb _ && _); auto. destruct (_ =? 0); auto. destruct (0 <? _); auto.
  - destruct (d_dp d <=? 0); auto. destruct (d_key d =? 0); auto.
Qed.

Lemma plus_if dp p : (if dp =? 0 then p else dp + p) = dp + p.
Proof. destruct (Z.eqb_spec dp 0); lia. Qed.

Lemma delta_step_inr o d t : wf_opt o -> delta_step o d = inr t ->
  wf_opt t /\ at_id (d_id d) t /\ delta_between (d_id d) o t = Some d.
Proof.
  destruct d as [id dp k]. unfold delta_step, is_zero, at_id. cbn [d_id d_dp d_key].
  destruct ((dp =? 0) && (k =? 0)) eqn:Z0; [discriminate|]. destruct o as [[oi op ok]|]; cbn [wf_opt e_power e_key].
  - intros [Hp Hk]. cbn in Hp, Hk. rewrite plus_if.
    destruct (Z.eqb_spec k ok) as [|Nk]; [discriminate|].
    destruct (Z.eqb_spec (dp + op) 0) as [E0|N0].
    + destruct (Z.eqb_spec k 0) as [->|]; cbn [negb andb]; [|discriminate].
      intros HH; inversion HH. split; [exact I|]. split; [discriminate|]. cbn. do 2 f_equal. lia.
    + rewrite andb_false_r. destruct (Z.ltb_spec 0 (dp + op)); [|discriminate].
      intros HH; inversion HH. split; [|split].
      * split; cbn; [lia|]. destruct (Z.eqb_spec k 0); cbn; auto.
      * intros e He; inversion He; reflexivity.
      * cbn [delta_between e_power e_key]. unfold is_zero. cbn [d_dp d_key]. replace (dp + op - op) with dp by lia.
        destruct (Z.eqb_spec k 0) as [->|Nk0]; cbn [negb].
        -- rewrite Z.eqb_refl. cbn [Z.eqb]. rewrite Z0. reflexivity.
        -- rewrite (proj2 (Z.eqb_neq k ok)), (proj2 (Z.eqb_neq k 0)), andb_false_r by auto. reflexivity.
  - intros _. destruct (Z.leb_spec dp 0); [discriminate|]. destruct (Z.eqb_spec k 0); [discriminate|].
    intros HH; inversion HH. split; [split; cbn; [lia|auto]|]. split; [|reflexivity].
    intros e He; inversion He; reflexivity.
Qed.

Lemma delta_between_step id o t d : wf_opt o -> wf_opt t -> at_id id t ->
  delta_between id o t = Some d -> delta_step o d = inr t /\ d_id d = id.
Proof.
  unfold delta_between, delta_step, at_id. intros Wo Wt It.
  destruct o as [[oi op ok]|], t as [[ti tp tk]|]; try discriminate; cbn [e_power e_key];
    try (rewrite <- (It _ eq_refl); cbn [e_id]).
  - destruct Wo as [Hp Hk], Wt as [Tp Tk]; cbn in Hp, Hk, Tp, Tk. destruct (is_zero _) eqn:Z0; [discriminate|]. intros HH; inversion HH; subst d; clear HH. rewrite Z0. split; [|reflexivity].
    unfold is_zero in Z0. cbn [d_id d_dp d_key] in *. rewrite plus_if. replace (tp - op + op) with tp by lia.
    rewrite (proj2 (Z.eqb_neq tp 0)), (proj2 (Z.ltb_lt 0 tp)), andb_false_r by lia.
    destruct (Z.eqb_spec tk ok) as [->|Nk].
    + rewrite (proj2 (Z.eqb_neq 0 ok)) by auto. reflexivity.
    + rewrite (proj2 (Z.eqb_neq tk ok)), (proj2 (Z.eqb_neq tk 0)) by auto. reflexivity.
  - destruct Wo as [Hp Hk]; cbn in Hp, Hk. intros HH; inversion HH; subst d; clear HH. unfold is_zero. cbn [d_id d_dp d_key]. rewrite plus_if.
    rewrite (proj2 (Z.eqb_neq (- op) 0)), (proj2 (Z.eqb_neq 0 ok)) by lia.
    replace (- op + op) with 0 by lia. split; reflexivity.
  - destruct Wt as [Tp Tk]; cbn in Tp, Tk. intros HH; inversion HH; subst d; clear HH. unfold is_zero. cbn [d_id d_dp d_key].
    rewrite (proj2 (Z.eqb_neq tp 0)), (proj2 (Z.leb_gt tp 0)), (proj2 (Z.eqb_neq tk 0)) by (auto; lia). split; reflexivity.
Qed.

Definition id_ltb (x y : delta) : bool := d_id x <? d_id y.
Definition id_lt : delta -> delta -> Prop := ilt id_ltb.
Lemma id_lt_iff x y : id_lt x y <-> d_id x < d_id y.
Proof. apply Z.ltb_lt. Qed.
Definition above (last : option Z) (ds : list delta) : Prop :=
  forall l, last = Some l -> Forall (fun d => l < d_id d) ds.

Lemma above_head last d ds : above last (d :: ds) ->
  (match last with Some l => d_id d <=? l | None => false end) = false.
Proof. destruct last as [l|]; auto. intros H. specialize (H l eq_refl). inversion H; subst. apply Z.leb_gt. auto. Qed.

Lemma apply_deltas_between (b : table) ds : forall m last,
  wf m -> wf b -> StronglySorted id_lt ds -> above last ds ->
  (forall d, In d ds -> delta_between (d_id d) (lookup m (d_id d)) (lookup b (d_id d)) = Some d) ->
  exists m', apply_deltas m last ds = inr m' /\ wf m' /\
    forall id, lookup m' id = if memZ id (map d_id ds) then lookup b id else lookup m id.
Proof.
  induction ds as [|d rest IH]; intros m last Hm Hb Hs Hl Hd.
  - exists m. cbn. auto.
  - cbn [apply_deltas]. rewrite (above_head _ _ _ Hl).
    destruct (wf_lookup b (d_id d) Hb) as [Wt It].
    destruct (delta_between_step _ _ _ _ (proj1 (wf_lookup m (d_id d) Hm)) Wt It (Hd d (or_introl eq_refl))) as [S _].
    rewrite apply_delta_eq, S.
    inversion Hs as [|? ? Hs' Hall]; subst. rewrite Forall_forall in Hall.
    destruct (IH (put_opt m (d_id d) (lookup b (d_id d))) (Some (d_id d))) as (m' & B1 & B2 & B3); auto.
    + apply wf_put_opt; auto.
    + intros l Hl'. inversion Hl'; subst. apply Forall_forall. intros d' Hin. apply id_lt_iff; auto.
    + intros d' Hin. rewrite lookup_put_opt by exact It.
      rewrite (proj2 (Z.eqb_neq (d_id d') (d_id d))); [apply Hd; right; auto|].
      apply Hall, id_lt_iff in Hin. lia.
    + exists m'. split; auto. split; auto. intros id. rewrite B3, lookup_put_opt by exact It.
      cbn [map memZ existsb]. unfold memZ.
      destruct (Z.eqb_spec id (d_id d)) as [->|], (existsb _ _); reflexivity.
Qed.

Lemma apply_deltas_inv ds : forall m last m', wf m -> apply_deltas m last ds = inr m' ->
  StronglySorted id_lt ds /\ above last ds /\ wf m' /\
  (forall d, In d ds -> delta_between (d_id d) (lookup m (d_id d)) (lookup m' (d_id d)) = Some d) /\
  (forall id, ~ In id (map d_id ds) -> lookup m' id = lookup m id).
Proof.
  induction ds as [|d rest IH]; intros m last m' Hm H; cbn [apply_deltas] in H.
  - inversion H; subst. split; [constructor|]. split; [intros l _; constructor|]. split; [auto|]. split; [intros d []|auto].
  - destruct (match last with Some l => d_id d <=? l | None => false end) eqn:Hl; [discriminate|].
    rewrite apply_delta_eq in H. destruct (delta_step (lookup m (d_id d)) d) as [e|t] eqn:St; [discriminate|].
    destruct (delta_step_inr _ _ _ (proj1 (wf_lookup m (d_id d) Hm)) St) as (Wt & It & Dt).
    destruct (IH _ (Some (d_id d)) m' (wf_put_opt _ (d_id d) _ Hm Wt) H) as (S & L & W & D & U).
    specialize (L (d_id d) eq_refl). rewrite Forall_forall in L.
    assert (Hd : lookup m' (d_id d) = t).
    { rewrite U; [rewrite lookup_put_opt, Z.eqb_refl by exact It; reflexivity|].
      intros Hin. apply in_map_iff in Hin. destruct Hin as (x & Ex & Hx). specialize (L x Hx). lia. }
    split. { constructor; auto. apply Forall_forall. intros x Hx. apply id_lt_iff; auto. }
    split. { intros l El. subst last. apply Z.leb_gt in Hl. constructor; auto.
             apply Forall_forall. intros x Hx. specialize (L x Hx). lia. }
    split; auto. split.
    + intros d' [<-|Hin]; [rewrite Hd; exact Dt|].
      specialize (D d' Hin). specialize (L d' Hin).
      rewrite lookup_put_opt, (proj2 (Z.eqb_neq (d_id d') (d_id d))) in D by (auto; lia). exact D.
    + intros id Hnin. cbn [map In] in Hnin. rewrite U, lookup_put_opt by (auto; tauto).
      rewrite (proj2 (Z.eqb_neq id (d_id d))); auto.
Qed.

Lemma id_ltb_trans x y z : id_lt x y -> id_lt y z -> id_lt x z.
Proof. rewrite !id_lt_iff. lia. Qed.
Lemma id_ltb_tri x y : id_ltb x y = false -> d_id x <> d_id y -> id_lt y x.
Proof. rewrite id_lt_iff. unfold id_ltb. rewrite Z.ltb_ge. lia. Qed.
Lemma id_ltb_asym x y : id_lt x y -> id_lt y x -> False.
Proof. rewrite !id_lt_iff. lia. Qed.

Lemma entry_ltb_trans x y z : entry_ltb x y = true -> entry_ltb y z = true -> entry_ltb x z = true.
Proof. unfold entry_ltb. rewrite !orb_true_iff, !andb_true_iff, !Z.ltb_lt, !Z.eqb_eq. lia. Qed.
Lemma entry_ltb_tri x y : entry_ltb x y = false -> e_id x <> e_id y -> entry_ltb y x = true.
Proof.
  unfold entry_ltb. rewrite orb_false_iff, andb_false_iff, orb_true_iff, andb_true_iff, !Z.ltb_lt, !Z.ltb_ge, !Z.eqb_eq, Z.eqb_neq. lia.
Qed.
Lemma entry_ltb_asym x y : entry_ltb x y = true -> entry_ltb y x = true -> False.
Proof. unfold entry_ltb. rewrite !orb_true_iff, !andb_true_iff, !Z.ltb_lt, !Z.eqb_eq. lia. Qed.

Lemma canon_isort m : canon m = isort entry_ltb m.
Proof. reflexivity. Qed.

Lemma canon_perm l : Permutation (canon l) l.
Proof. rewrite canon_isort. apply isort_perm. Qed.

Theorem canon_ext m1 m2 : NoDup (ids m1) -> NoDup (ids m2) ->
  (forall id, lookup m1 id = lookup m2 id) -> canon m1 = canon m2.
Proof.
  intros H1 H2 He. rewrite !canon_isort. apply (isort_ext _ entry_ltb e_id entry_ltb_trans entry_ltb_tri entry_ltb_asym); auto.
  intros e. split; intros Hin; apply in_lookup in Hin as L; auto.
  - rewrite He in L. eapply lookup_in; eauto.
  - rewrite <- He in L. eapply lookup_in; eauto.
Qed.

Definition raw_diff (a b : table) : list delta :=
  flat_map (fun ne => match delta_between (e_id ne) (lookup a (e_id ne)) (Some ne) with Some d => [d] | None => [] end) b ++
  flat_map (fun oe => if memZ (e_id oe) (ids b) then [] else [mkD (e_id oe) (- e_power oe) 0]) a.

Lemma make_diff_isort a b : make_diff a b = isort id_ltb (raw_diff a b).
Proof. reflexivity. Qed.

Lemma make_diff_in a b d : In d (make_diff a b) <-> In d (raw_diff a b).
Proof. rewrite make_diff_isort. apply isort_in. Qed.

Lemma delta_between_id id o n d : delta_between id o n = Some d -> d_id d = id.
Proof.
  unfold delta_between. destruct o, n; try discriminate.
  - destruct (is_zero _); [discriminate|]. intros H; inversion H; reflexivity.
  - intros H; inversion H; reflexivity.
  - intros H; inversion H; reflexivity.
Qed.

Lemma raw_diff_in a b d : NoDup (ids a) -> NoDup (ids b) ->
  In d (raw_diff a b) <-> delta_between (d_id d) (lookup a (d_id d)) (lookup b (d_id d)) = Some d.
Proof.
  intros Ha Hb. unfold raw_diff. rewrite in_app_iff, !in_flat_map. split.
  - intros [[ne [Hin Hd]]|[oe [Hin Hd]]].
    + destruct (delta_between (e_id ne) (lookup a (e_id ne)) (Some ne)) as [d'|] eqn:E; [|destruct Hd].
      destruct Hd as [<-|[]]. rewrite (delta_between_id _ _ _ _ E), (in_lookup b ne Hb Hin). exact E.
    + destruct (memZ (e_id oe) (ids b)) eqn:M; [destruct Hd|]. destruct Hd as [<-|[]]. cbn [d_id].
      apply memZ_false, lookup_none in M. rewrite (in_lookup a oe Ha Hin), M. reflexivity.
  - intros Hd. destruct (lookup b (d_id d)) as [ne|] eqn:Lb.
    + left. exists ne. split; [eapply lookup_in; eauto|]. rewrite (lookup_id _ _ _ Lb), Hd. left; auto.
    + right. destruct (lookup a (d_id d)) as [oe|] eqn:La; [|discriminate].
      exists oe. split; [eapply lookup_in; eauto|]. rewrite (lookup_id _ _ _ La).
      apply lookup_none, memZ_false in Lb. rewrite Lb. cbn in Hd. left. inversion Hd as [Hd']. cbn [d_id]. rewrite Hd'. reflexivity.
Qed.

Lemma raw_diff_nodup a b : NoDup (ids a) -> NoDup (ids b) -> NoDup (map d_id (raw_diff a b)).
Proof.
  intros Ha Hb. unfold raw_diff. rewrite map_app.
  assert (N1 : forall l, NoDup (ids l) -> NoDup (map d_id (flat_map (fun ne => match delta_between (e_id ne) (lookup a (e_id ne)) (Some ne) with Some d => [d] | None => [] end) l))
          /\ forall x, In x (map d_id (flat_map (fun ne => match delta_between (e_id ne) (lookup a (e_id ne)) (Some ne) with Some d => [d] | None => [] end) l)) -> In x (ids l)).
  { induction l as [|ne r IH]; cbn; intros Hn. { split; [constructor|tauto]. }
    inversion Hn; subst. destruct (IH H2) as [I1 I2].
    destruct (delta_between (e_id ne) (lookup a (e_id ne)) (Some ne)) as [d|] eqn:E; cbn.
    - pose proof (delta_between_id _ _ _ _ E) as Hid. split.
      + constructor; auto. rewrite Hid. intros H. apply I2 in H. auto.
      + intros x [<-|H]; [left; auto|right; auto].
    - split; auto. }
  assert (N2 : forall l, NoDup (ids l) -> NoDup (map d_id (flat_map (fun oe => if memZ (e_id oe) (ids b) then [] else [mkD (e_id oe) (- e_power oe) 0]) l))
          /\ forall x, In x (map d_id (flat_map (fun oe => if memZ (e_id oe) (ids b) then [] else [mkD (e_id oe) (- e_power oe) 0]) l)) -> In x (ids l) /\ ~ In x (ids b)).
  { induction l as [|oe r IH]; cbn; intros Hn. { split; [constructor|tauto]. }
    inversion Hn; subst. destruct (IH H2) as [I1 I2].
    destruct (memZ (e_id oe) (ids b)) eqn:M; cbn.
    - split; auto. intros x H. apply I2 in H. tauto.
    - apply memZ_false in M. split.
      + constructor; auto. intros H. apply I2 in H. tauto.
      + intros x [<-|H]; [auto|]. apply I2 in H. tauto. }
  destruct (N1 b Hb) as [A1 A2]. destruct (N2 a Ha) as [B1 B2].
  apply nodup_app; auto. intros x H1 H2. apply A2 in H1. apply B2 in H2. tauto.
Qed.

Lemma make_diff_sorted a b : NoDup (ids a) -> NoDup (ids b) -> StronglySorted id_lt (make_diff a b).
Proof.
  intros Ha Hb. rewrite make_diff_isort. apply (isort_sorted _ id_ltb d_id id_ltb_trans id_ltb_tri). apply raw_diff_nodup; auto.
Qed.

Lemma delta_between_none id o n : at_id id o -> at_id id n -> wf_opt n -> delta_between id o n = None -> o = n.
Proof.
  intros Ho Hn Hw. unfold delta_between. destruct o as [oe|], n as [ne|]; try discriminate; auto.
  destruct (is_zero _) eqn:Z0; [|discriminate]. intros _. unfold is_zero in Z0. cbn in Z0.
  apply andb_true_iff in Z0. destruct Z0 as [P K]. apply Z.eqb_eq in P.
  destruct (e_key ne =? e_key oe) eqn:E.
  - apply Z.eqb_eq in E. specialize (Ho oe eq_refl). specialize (Hn ne eq_refl).
    destruct oe, ne; cbn in *; subst. f_equal. f_equal; lia.
  - apply Z.eqb_eq in K. destruct Hw as [_ Hk]. contradiction.
Qed.

Lemma delta_between_same id o : delta_between id o o = None.
Proof. destruct o as [e|]; cbn; auto. unfold is_zero. cbn. rewrite Z.sub_diag, !Z.eqb_refl. reflexivity. Qed.

Lemma not_in_make_diff a b id : wf a -> wf b -> ~ In id (map d_id (make_diff a b)) -> lookup a id = lookup b id.
Proof.
  intros Ha Hb M. destruct (wf_lookup a id Ha) as [_ Ia]. destruct (wf_lookup b id Hb) as [Wb Ib].
  destruct (delta_between id (lookup a id) (lookup b id)) as [d|] eqn:D; [|eapply delta_between_none; eauto].
  exfalso. apply M. pose proof (delta_between_id _ _ _ _ D) as Hid. rewrite <- Hid. apply in_map.
  apply make_diff_in, raw_diff_in; [apply Ha|apply Hb|]. rewrite Hid. exact D.
Qed.

Theorem apply_make_map a b : wf a -> wf b ->
  exists m, apply_deltas a None (make_diff a b) = inr m /\ wf m /\ forall id, lookup m id = lookup b id.
Proof.
  intros Ha Hb.
  destruct (apply_deltas_between b (make_diff a b) a None Ha Hb) as (m & M1 & M2 & M3).
  - apply make_diff_sorted; [apply Ha|apply Hb].
  - discriminate.
  - intros d Hin. apply make_diff_in, raw_diff_in in Hin; [auto|apply Ha|apply Hb].
  - exists m. split; auto. split; auto. intros id. rewrite M3.
    destruct (memZ id (map d_id (make_diff a b))) eqn:M; auto.
    apply memZ_false in M. apply not_in_make_diff; auto.
Qed.

Theorem apply_make a b : wf a -> wf b -> apply_diff a (make_diff a b) = inr (canon b).
Proof.
  intros Ha Hb. destruct (apply_make_map a b Ha Hb) as (m & M1 & [M2 _] & M4).
  unfold apply_diff. rewrite M1. f_equal. apply canon_ext; auto. apply Hb.
Qed.

Theorem apply_unique a d m : wf a -> apply_deltas a None d = inr m -> d = make_diff a m.
Proof.
  intros Ha H. destruct (apply_deltas_inv d a None m Ha H) as (S & _ & Hm & D & U).
  apply (sorted_ext _ id_ltb id_ltb_asym); auto. { apply make_diff_sorted; [apply Ha|apply Hm]. }
  intros x. rewrite make_diff_in, raw_diff_in by (apply Ha || apply Hm). split; [apply D|]. intros Hd.
  destruct (in_dec Z.eq_dec (d_id x) (map d_id d)) as [Hin|Hnin].
  - apply in_map_iff in Hin. destruct Hin as (y & Ey & Hy). specialize (D y Hy). rewrite Ey in D. congruence.
  - rewrite (U _ Hnin), delta_between_same in Hd. discriminate.
Qed.

Example apply_make_example :
  let a := [mkE 1 10 7; mkE 2 5 8; mkE 3 5 9] in
  let b := [mkE 3 6 9; mkE 4 1 11; mkE 1 10 12] in
  make_diff a b = [mkD 1 0 12; mkD 2 (-5) 0; mkD 3 1 0; mkD 4 1 11] /\
  apply_diff a (make_diff a b) = inr [mkE 1 10 12; mkE 3 6 9; mkE 4 1 11].
Proof. split; vm_compute; reflexivity. Qed.
