(* C14: Encodings: signed bytes bind every field, chain keys agree, codecs are robust.
   Models: Enc/Payload.v (byte-level signing encodings), Enc/Merkle.v (Tree / BatchTree over an abstract collision-free
   hash), Enc/Cbor.v (cbor-gen item headers); tied to the code by byte-for-byte / digest-for-digest correspondence. *)
From Coq Require Import ZArith List Bool Lia.
From F3 Require Import Payload PayloadProofs Merkle MerkleProofs Cbor CborProofs Codec CodecProofs CodecSound CidModel SchemasGen.
Import ListNotations.

(* the signed bytes determine every field (same network; and across networks when CIDs have equal length) *)
Theorem C14_payload_inj : forall tag nn p r i c k cid p' r' i' c' k' cid',
  (0 <= r < 2 ^ 64 -> 0 <= r' < 2 ^ 64 -> 0 <= i < 2 ^ 64 -> 0 <= i' < 2 ^ 64 ->
  length c = length c' -> length k = length k' ->
  marshal_payload tag nn p r i c k cid = marshal_payload tag nn p' r' i' c' k' cid' ->
  p = p' /\ r = r' /\ i = i' /\ c = c' /\ k = k' /\ cid = cid')%Z.
Proof.
  intros tag nn p r i c k cid p' r' i' c' k' cid' Hr Hr' Hi Hi' Hc Hk H. unfold marshal_payload in H.
  do 4 apply app_inv_head in H.
  apply app_inv_len in H; [|reflexivity]. destruct H as [Hp H]. injection Hp as ->.
  apply be64_split in H; [|assumption..]. destruct H as [-> H].
  apply be64_split in H; [|assumption..]. destruct H as [-> H].
  apply app_inv_len in H; [|exact Hc]. destruct H as [-> H].
  apply app_inv_len in H; [|exact Hk]. destruct H as [-> ->]. repeat split.
Qed.
Print Assumptions C14_payload_inj.
Theorem C14_payload_inj_net : forall tag nn p r i c k cid nn' p' r' i' c' k' cid',
  (0 <= r < 2 ^ 64 -> 0 <= r' < 2 ^ 64 -> 0 <= i < 2 ^ 64 -> 0 <= i' < 2 ^ 64 ->
  length c = length c' -> length k = length k' -> length cid = length cid' ->
  marshal_payload tag nn p r i c k cid = marshal_payload tag nn' p' r' i' c' k' cid' ->
  nn = nn' /\ p = p' /\ r = r' /\ i = i' /\ c = c' /\ k = k' /\ cid = cid')%Z.
Proof.
  intros tag nn p r i c k cid nn' p' r' i' c' k' cid' Hr Hr' Hi Hi' Hc Hk Hcid H.
  assert (Hn : length nn = length nn').
  { apply (f_equal (@length Z)) in H. unfold marshal_payload, be64 in H. rewrite !app_length, !be_length in H. cbn in H. lia. }
  assert (E : nn = nn').
  { unfold marshal_payload in H. do 2 apply app_inv_head in H. apply app_inv_len in H; [apply H|exact Hn]. }
  subst nn'. split; [reflexivity|]. eapply C14_payload_inj; eauto.
Qed.
Print Assumptions C14_payload_inj_net.
Theorem C14_tipset_inj : forall e c t p e' c' t' p',
  (- 2 ^ 63 <= e < 2 ^ 63 -> - 2 ^ 63 <= e' < 2 ^ 63 -> length c = length c' -> length t = length t' ->
  marshal_tipset e c t p = marshal_tipset e' c' t' p' -> e = e' /\ c = c' /\ t = t' /\ p = p')%Z.
Proof.
  intros e c t p e' c' t' p' He He' Hc Ht H. unfold marshal_tipset in H.
  apply be64_split in H; [|apply Z.mod_pos_bound; lia..]. destruct H as [H1 H].
  apply app_inv_len in H; [|exact Hc]. destruct H as [-> H].
  apply app_inv_len in H; [|exact Ht]. destruct H as [-> ->].
  rewrite (mod64_inj e e' He He' H1). repeat split.
Qed.
Print Assumptions C14_tipset_inj.
Theorem C14_vrf_inj : forall tag nn b i r b' i' r',
  (0 <= r < 2 ^ 64 -> 0 <= r' < 2 ^ 64 -> 0 <= i < 2 ^ 64 -> 0 <= i' < 2 ^ 64 -> length b = length b' ->
  marshal_vrf tag nn b i r = marshal_vrf tag nn b' i' r' -> b = b' /\ i = i' /\ r = r')%Z.
Proof.
  intros tag nn b i r b' i' r' Hr Hr' Hi Hi' Hb H. unfold marshal_vrf in H.
  do 4 apply app_inv_head in H.
  apply app_inv_len in H; [|exact Hb]. destruct H as [-> H]. apply app_inv_head in H.
  apply be64_split in H; [|assumption..]. destruct H as [-> H].
  rewrite (be_inj 8 r r' Hr Hr' H). repeat split.
Qed.
Print Assumptions C14_vrf_inj.

(* the chain key (merkle root over the tipset encodings) determines the whole chain: content, length and order *)
Theorem C14_chain_key_inj : forall vs ws, tree vs = tree ws -> vs = ws.
Proof. exact tree_inj. Qed.
Print Assumptions C14_chain_key_inj.
(* the key computed in batch for every prefix is the key computed directly *)
Theorem C14_batch_is_direct : forall vs i, (1 <= i <= length vs)%nat -> nth (i - 1)%nat (batch_tree vs) DZ = tree (firstn i vs).
Proof. intros vs. apply batch_tree_spec. Qed.
Print Assumptions C14_batch_is_direct.
Theorem C14_batch_length : forall vs, length (batch_tree vs) = length vs.
Proof. intros vs. apply batch_tree_spec. Qed.
Print Assumptions C14_batch_length.

(* CBOR item headers: what is written is read back, whatever follows *)
Theorem C14_cbor_header_roundtrip : forall mt n rest,
  (0 <= mt < 8 -> 0 <= n < 2 ^ 64 -> decode_header (encode_header mt n ++ rest) = Some (mt, n, rest))%Z.
Proof. exact header_roundtrip. Qed.
Print Assumptions C14_cbor_header_roundtrip.

(* ---- the generated codecs (Enc/Codec.v over the schemas REGENERATED from /repo's cbor_gen.go files, Gen/SchemasGen.v) ----
   for EVERY schema built from the cbor-gen templates and every value within the limits of the Go types (wfv):
   what is written is read back whatever follows; no strict prefix of an encoding decodes (torn / truncated input is an
   error); encoding is injective; and on EVERY input -- valid or hostile -- each allocation the reader requests is
   below the largest limit of the schema (the length guard precedes the allocation). *)
Theorem C14_codec_roundtrip : forall cid_ok s v, wf_schema s -> wfv cid_ok s v ->
  exists b, encode cid_ok s v = Some b /\ forall rest, fst (decode cid_ok s (b ++ rest)) = Some (v, rest).
Proof. exact codec_roundtrip. Qed.
Print Assumptions C14_codec_roundtrip.
Theorem C14_codec_truncated_is_error : forall cid_ok s v b p q, wf_schema s -> wfv cid_ok s v -> encode cid_ok s v = Some b ->
  q <> [] -> b = p ++ q -> fst (decode cid_ok s p) = None.
Proof. exact codec_truncated. Qed.
Print Assumptions C14_codec_truncated_is_error.
Theorem C14_codec_encoding_injective : forall cid_ok s v1 v2 b, wf_schema s -> wfv cid_ok s v1 -> wfv cid_ok s v2 ->
  encode cid_ok s v1 = Some b -> encode cid_ok s v2 = Some b -> v1 = v2.
Proof. exact codec_encode_inj. Qed.
Print Assumptions C14_codec_encoding_injective.
Theorem C14_codec_alloc_bounded : forall cid_ok s bs, Forall (fun a => a <= alloc_limit s)%Z (snd (decode cid_ok s bs)).
Proof. exact codec_alloc_bounded. Qed.
Print Assumptions C14_codec_alloc_bounded.
(* and whatever bytes come in -- valid, truncated, oversized, hostile -- a value the reader returns is within the limits of
   the Go type: integers in range, byte strings and lists no longer than their documented limits, fixed arrays of exactly
   their size, castable CIDs, big integers of at most 128 encoded bytes *)
Theorem C14_codec_decoded_values_within_limits : forall cid_ok s bs v rest, wf_schema s -> bytes_ok bs ->
  fst (decode cid_ok s bs) = Some (v, rest) -> wfv cid_ok s v /\ bytes_ok rest.
Proof. intros cid_ok s bs v rest Hw Hb H. exact (decode_sound cid_ok s Hw bs v rest Hb H). Qed.
Print Assumptions C14_codec_decoded_values_within_limits.
(* the schemas extracted from the current source satisfy the hypothesis of these theorems, and no reader of a wire or
   storage type ever requests more than 2 MiB at once (the signature limit of a finality certificate) *)
Theorem C14_generated_schemas_wf : Forall wf_schema all_schemas.
Proof.
  apply Forall_forall. intros s Hs. apply wf_schemab_sound.
  assert (A : forallb wf_schemab all_schemas = true) by (vm_compute; reflexivity).
  exact (proj1 (forallb_forall _ _) A s Hs).
Qed.
Print Assumptions C14_generated_schemas_wf.
Theorem C14_generated_alloc_limits : Forall (fun s => alloc_limit s <= 2097152)%Z all_schemas.
Proof.
  apply Forall_forall. intros s Hs. apply Z.leb_le.
  assert (A : forallb (fun s => alloc_limit s <=? 2097152)%Z all_schemas = true) by (vm_compute; reflexivity).
  exact (proj1 (forallb_forall _ _) A s Hs).
Qed.
Print Assumptions C14_generated_alloc_limits.

Example C14_codec_nonvacuous :
  let cidb := [1;113;160;228;2;32;1;2;3;4;5;6;7;8;9;10;11;12;13;14;15;16;17;18;19;20;21;22;23;24;25;26;27;28;29;30;31;32]%Z in
  let supp := VList [VBytes (repeat 7%Z 32); VBytes cidb] in
  let ts := VList [VZ (-5); VBytes [1;2;3]%Z; VBytes cidb; VBytes (repeat 9%Z 32)] in
  let vote := VList [VZ 3; VZ 1; VZ 2; supp; VList [ts; ts]] in
  let just := VList [vote; VBytes [4; 1]%Z; VBytes (repeat 1%Z 96)] in
  let msg := VList [VZ 7; vote; VBytes (repeat 2%Z 96); VBytes []; VSome just] in
  wfv cid_cast_ok s_GMessage msg /\
  match encode cid_cast_ok s_GMessage msg with
  | Some b => fst (decode cid_cast_ok s_GMessage (b ++ [255]%Z)) = Some (msg, [255]%Z) /\
              fst (decode cid_cast_ok s_GMessage (firstn 100 b)) = None /\ length b = 701%nat
  | None => False
  end.
Proof. vm_compute. repeat split; try discriminate; try (intros; discriminate). Qed.

Example C14_nonvacuous :
  tree [10; 20; 30]%Z = DN (DN (DL 10%Z) (DL 20%Z)) (DN (DL 30%Z) DZ) /\
  batch_tree [10; 20; 30]%Z = [DL 10%Z; DN (DL 10%Z) (DL 20%Z); DN (DN (DL 10%Z) (DL 20%Z)) (DN (DL 30%Z) DZ)] /\
  encode_header 2 300 = [89; 1; 44]%Z /\ decode_header [24; 5]%Z = None.
Proof. vm_compute. repeat split. Qed.
