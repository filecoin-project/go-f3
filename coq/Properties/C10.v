(* C10 — Certificate store operations are crash-atomic at datastore-write granularity. *)
From Coq Require Import List.
From F3 Require Import CertStore StoreProofs.
Import ListNotations.
Open Scope Z_scope.

Theorem c10_put_crash_atomic : forall toks s tabs c ws npt,
  inv toks s tabs -> put_plan toks s c = PutOk ws npt ->
  forall k, (k <= length ws)%nat ->
  let d' := apply_writes (s_ds s) (firstn k ws) in
  ((k < length ws)%nat ->
     let s' := mkS d' (s_first s) (s_freq s) (s_latest s) (s_pt s) in
     open_store (s_freq s) d' = inr s' /\ inv toks s' tabs /\ put_plan toks s' c = PutOk ws npt) /\
  (k = length ws -> open_store (s_freq s) d' = inr (fst (put toks s c))).
Proof. exact put_crash_atomic. Qed.
Print Assumptions c10_put_crash_atomic.

Theorem c10_create_crash_atomic : forall freq d first pt, fresh d -> pt <> [] ->
  forall k, (k < 2)%nat ->
  let d' := apply_writes d (firstn k (create_writes first pt)) in
  open_store freq d' = inl ENotInitialized /\
  exists s, create_store freq d' first pt = inr s /\
            (forall j, d_power (s_ds s) j = d_power (apply_writes d (create_writes first pt)) j) /\
            d_first (s_ds s) = Some first /\ s_latest s = None /\ s_pt s = pt.
Proof. exact create_crash_atomic. Qed.
Print Assumptions c10_create_crash_atomic.

Theorem c10_wipe_resumed : forall freq d, d_tomb d = true \/ d_rawtomb d = true ->
  continue_delete d = ds_empty /\ open_store freq d = inl ENotInitialized /\
  forall first pt, pt <> [] -> exists s, create_store freq d first pt = inr s /\
       s_ds s = apply_writes ds_empty (create_writes first pt).
Proof. exact wipe_resumed. Qed.
Print Assumptions c10_wipe_resumed.

Theorem c10_wipe_any_partial_deletion : forall freq d (dels : list write),
  (forall w, In w dels -> match w with WDelCert _ | WDelPower _ | WDelLatest | WDelFirst => True | _ => False end) ->
  open_store freq (apply_writes (apply_write d WTomb) dels) = inl ENotInitialized.
Proof.
  intros freq d dels Hd. apply wipe_resumed. left.
  assert (forall d0, d_tomb d0 = true -> d_tomb (apply_writes d0 dels) = true) as K.
  { induction dels as [|w r IH]; intros d0 H0; cbn; auto. apply IH.
    - intros w' Hw'. apply Hd. right; auto.
    - specialize (Hd w (or_introl eq_refl)). destruct w; try contradiction; cbn; auto. }
  apply K. reflexivity.
Qed.
Print Assumptions c10_wipe_any_partial_deletion.

Theorem c10_reopen_identity : forall toks s tabs, inv toks s tabs -> open_store (s_freq s) (s_ds s) = inr s.
Proof. exact reopen_identity. Qed.
Print Assumptions c10_reopen_identity.
