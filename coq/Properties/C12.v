(* C12 — A node never self-equivocates on the wire, across requests and restarts.
   Model: Equiv/Filter.v (equivocation.go's filter, exact; host.go's broadcast / rebroadcast / restart path). *)
From Coq Require Import ZArith List Bool.
From F3 Require Import Filter FilterProofs.
Import ListNotations.
Open Scope Z_scope.

Theorem c12_wire_no_equivocation : forall local ours h, reachable local ours h -> conflict_free (h_wire h).
Proof. exact wire_no_equivocation. Qed.
Print Assumptions c12_wire_no_equivocation.

Theorem c12_wire_no_older_instance : forall local ours h, reachable local ours h -> nondecreasing (h_wire h).
Proof. exact wire_no_older_instance. Qed.
Print Assumptions c12_wire_no_older_instance.

Theorem c12_wire_logged_first : forall local ours h, reachable local ours h -> incl (h_wire h) (h_ever h).
Proof. intros local ours h R. apply (hi_wire _ _ _ (reachable_inv local ours h R)). Qed.
Print Assumptions c12_wire_logged_first.

Theorem c12_hstep_inv : forall local ours h o, HInv local ours h -> op_ok ours h o -> HInv local ours (hstep local h o).
Proof. exact hstep_inv. Qed.
Print Assumptions c12_hstep_inv.

Theorem c12_replay_coherent : forall local l, conflict_free l -> Forall (fun m => 0 <= m_inst m) l ->
  coherent local 0 (replay local l) l.
Proof. exact replay_coherent. Qed.
Print Assumptions c12_replay_coherent.

Theorem c12_replay_perm_invariant : forall local l1 l2, conflict_free l1 -> Forall (fun m => 0 <= m_inst m) l1 ->
  (forall m, In m l1 <-> In m l2) -> Forall (fun m => 0 <= m_inst m) l2 ->
  f_cur (replay local l1) = f_cur (replay local l2) /\ forall k, sg (replay local l1) k = sg (replay local l2) k.
Proof. exact replay_perm_invariant. Qed.
Print Assumptions c12_replay_perm_invariant.

(* non-vacuity: a history with a conflicting request, a crash, a restart and a purge *)
Example c12_history :
  let a := mkMsg 3 7 0 2 11 in let a' := mkMsg 3 7 0 2 12 in let b := mkMsg 4 7 0 1 13 in let c := mkMsg 9 7 0 1 14 in
  h_wire (hrun 1 [HBroadcast a; HBroadcast a'; HCrashAfterWal b; HBroadcast (mkMsg 4 7 0 1 99); HBroadcast b; HRestart;
                  HBroadcast a'; HPurge 5 [true; true]; HRestart; HBroadcast c; HRebroadcast c])
  = [a; b; c; c].
Proof. vm_compute. reflexivity. Qed.
