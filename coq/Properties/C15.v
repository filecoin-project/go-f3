(* C15: Proposals extend the finalized head along EC; committees derive from finality.
   Model: Inputs/Proposal.v (hand-written mirror of consensus_inputs.go over an explicit EC block tree and a view of the
   certificate store), tied to the real gpbftInputs by correspondence (harness c15.go). *)
From Coq Require Import ZArith List Bool Lia.
From F3 Require Import Proposal ProposalProofs.
Import ListNotations.
Open Scope Z_scope.

(* for every EC tree, certificate view, configuration, clock position and instance: whatever GetProposal returns starts
   at the finalized base, continues with a prefix of the parent-linked chain from the base towards the EC head (or is the
   base alone when the head does not descend from it), has strictly increasing epochs, respects min(128, configured
   length), carries EC's power-table CID per tipset (by construction of the map) and commits to the next committee *)
Theorem C15_proposal_shape : forall c e head cs now inst tbl chain,
  proposal c e head cs now inst = Some (tbl, chain) ->
  exists b h suffix collected,
    Some (t_key b) = (if inst =? c_initial c
                      then option_map t_key (by_epoch e (get_ts e head) (c_bootstrap c - c_finality c) (S (length e)))
                      else option_map fst (cs_cert cs (inst - 1))) /\
    get_ts e head = Some h /\
    chain = map (fun t => (t_key t, t_epoch t, t_pt t)) (b :: suffix) /\
    ((collect e b h = COk collected /\ is_prefix suffix collected /\ linked (t_key b) collected) \/
     (collect e b h = CCollapse /\ suffix = [])) /\
    (1 <= c_proposed_len c -> Z.of_nat (length chain) <= Z.min 128 (c_proposed_len c)) /\
    epochs_inc (-1) (b :: suffix) = true /\
    exists bc, committee c e head cs (inst + 1) = Some (tbl, bc).
Proof.
  intros c e head cs now inst tbl chain. unfold proposal.
  set (bk := if inst =? c_initial c then _ else _).
  destruct bk as [k|] eqn:Ebk; [|discriminate].
  destruct (get_ts e k) as [b|] eqn:Eb; [|discriminate].
  destruct (get_ts e head) as [h|] eqn:Eh; [|discriminate].
  apply get_ts_key in Eb as Hkb. subst k.
  destruct (collect e b h) as [| |l] eqn:Ec; [discriminate|pose proof (trimmed c now []) as T|pose proof (trimmed c now l) as T];
    cbv zeta in T |- *; set (suffix := firstnZ (Z.min _ _) _) in *; destruct T as [P L];
    (destruct (negb (epochs_inc (-1) (b :: suffix))) eqn:Ee; [discriminate|]);
    (destruct (committee c e head cs (inst + 1)) as [[tb bc]|] eqn:Ecm; [|discriminate]);
    intros H; injection H as <- <-; apply negb_false_iff in Ee.
  - destruct P as [t P]. symmetry in P. apply app_eq_nil in P. destruct P as [P _]. rewrite P in *.
    exists b, h, [], []. repeat split; eauto.
  - exists b, h, suffix, l. repeat split; eauto.
    + left. repeat split; auto. apply (collect_linked e b h l Ec).
    + intros Hp. cbn [map length]. rewrite map_length. specialize (L Hp). unfold lenZ in L. lia.
Qed.
Print Assumptions C15_proposal_shape.

(* collectChain: a parent-linked path hanging off the base and ending at the head *)
Theorem C15_collect_linked : forall e base head l, collect e base head = COk l -> linked (t_key base) l.
Proof. exact collect_linked. Qed.
Print Assumptions C15_collect_linked.
Theorem C15_collect_ends_at_head : forall e base head l,
  collect e base head = COk l -> (l = [] /\ t_key head = t_key base) \/ exists q, l = q ++ [head].
Proof.
  intros e base head l. unfold collect. destruct (t_epoch head <? t_epoch base); [discriminate|]. intros H.
  destruct (walk_spec _ _ _ _ _ _ H) as (q & -> & _ & [[-> E]|[q' ->]]); rewrite app_nil_r; eauto.
Qed.
Print Assumptions C15_collect_ends_at_head.

(* the committee consults EC only at tipsets named by certificates (and, before the first certificate, at the bootstrap
   tipset): two nodes holding the same certificates derive the same committee whatever their EC heads and unfinalized forks *)
Theorem C15_committee_finalized_only : forall c e1 h1 e2 h2 cs inst,
  (forall i hk bk, cs_cert cs i = Some (hk, bk) -> get_ts e1 hk = get_ts e2 hk /\ get_ts e1 bk = get_ts e2 bk) ->
  (cs_has_latest cs = false ->
     by_epoch e1 (get_ts e1 h1) (c_bootstrap c - c_finality c) (S (length e1)) = by_epoch e2 (get_ts e2 h2) (c_bootstrap c - c_finality c) (S (length e2)) /\
     forall t, by_epoch e1 (get_ts e1 h1) (c_bootstrap c - c_finality c) (S (length e1)) = Some t -> get_ts e1 (t_key t) = get_ts e2 (t_key t)) ->
  committee c e1 h1 cs inst = committee c e2 h2 cs inst.
Proof.
  intros c e1 h1 e2 h2 cs inst Hc Hb. unfold committee.
  destruct (inst <? c_initial c + c_lookback c).
  - destruct (cs_table cs (c_initial c)) as [tbl|]; [|reflexivity].
    destruct (cs_has_latest cs) eqn:El; cbn [negb].
    + destruct (cs_cert cs (c_initial c)) as [[hk bk]|] eqn:Ece; cbn; [|reflexivity].
      destruct (Hc _ _ _ Ece) as [_ H]. rewrite H. reflexivity.
    + destruct (Hb eq_refl) as [H1 H2]. rewrite <- H1.
      destruct (by_epoch e1 (get_ts e1 h1) (c_bootstrap c - c_finality c) (S (length e1))) as [t|] eqn:Et; cbn; [|reflexivity].
      rewrite (H2 t eq_refl). reflexivity.
  - destruct (cs_cert cs (inst - c_lookback c)) as [[hk bk]|] eqn:Ece; [|reflexivity].
    destruct (Hc _ _ _ Ece) as [H _]. rewrite H. reflexivity.
Qed.
Print Assumptions C15_committee_finalized_only.

(* non-vacuity: base m1, head m4 on the line: proposal [m1; m2; m3] with head-lookback 1; from the head f5 of a fork off m2
   the proposal follows the fork's own parent chain; from a head whose ancestry passes below the base's epoch without
   meeting the base it collapses to the base *)
Definition ex_ec : ec := [ mkT 1 10 0 0 91 81 91; mkT 2 11 1 30 92 82 92; mkT 3 13 2 90 93 83 93; mkT 4 14 3 120 94 84 94;
                           mkT 5 12 2 60 95 85 95; mkT 7 12 8 0 97 87 97; mkT 8 9 0 0 98 88 98 ].
Definition ex_cfg := mkCfg 0 20 10 2 1 30 10.
Definition ex_cs := mkCerts (fun i => if i =? 0 then Some (1, 1) else None) (fun i => if i =? 0 then Some 77 else if i =? 1 then Some 78 else None) true.
Example C15_nonvacuous :
  proposal ex_cfg ex_ec 4 ex_cs 1000 1 = Some (91, [(1, 10, 91); (2, 11, 92); (3, 13, 93)]) /\
  proposal ex_cfg ex_ec 5 ex_cs 1000 1 = Some (91, [(1, 10, 91); (2, 11, 92)]) /\
  proposal ex_cfg ex_ec 7 ex_cs 1000 1 = Some (91, [(1, 10, 91)]) /\
  collect ex_ec (mkT 1 10 0 0 91 81 91) (mkT 7 12 8 0 97 87 97) = CCollapse.
Proof. vm_compute. repeat split. Qed.
