(* C04 — Certificate chains verify only if quorum-signed and linked; deltas are exact.
   Models: Power/Table.v (MakePowerTableDiff / ApplyPowerTableDiffs) and Certs/Validate.v
   (ValidateFinalityCertificates), hand-written mirrors of certs/certs.go tied by correspondence;
   the quorum predicate inside verify_sig is the GENERATED isStrongQuorum. *)
From Coq Require Import ZArith List Bool Lia.
From F3 Require Import QuorumGen QuorumProofs Table DiffProofs Validate ValidateProofs.
Import ListNotations.
Open Scope Z_scope.

Theorem c04_apply_make : forall a b, wf a -> wf b -> apply_diff a (make_diff a b) = inr (canon b).
Proof. exact apply_make. Qed.
Print Assumptions c04_apply_make.

Theorem c04_apply_unique : forall a d m, wf a -> apply_deltas a None d = inr m -> d = make_diff a m.
Proof. exact apply_unique. Qed.
Print Assumptions c04_apply_unique.

Theorem c04_apply_diff_unique : forall a d t, wf a -> apply_diff a d = inr t ->
  exists m, t = canon m /\ d = make_diff a m.
Proof.
  intros a d t Ha. unfold apply_diff. destruct (apply_deltas a None d) as [e|m] eqn:E; [discriminate|].
  intros H; inversion H; subst. exists m. split; auto. eapply apply_unique; eauto.
Qed.
Print Assumptions c04_apply_diff_unique.

Theorem c04_canon_ext : forall m1 m2, NoDup (ids m1) -> NoDup (ids m2) ->
  (forall id, lookup m1 id = lookup m2 id) -> canon m1 = canon m2.
Proof. exact canon_ext. Qed.
Print Assumptions c04_canon_ext.

(* acceptance of a certificate sequence <-> every certificate satisfies the declarative rule *)
Theorem c04_validate_sound : forall toks net cs s s',
  validate_loop toks net s cs = (None, s') -> accepted toks net s cs s'.
Proof. exact validate_sound. Qed.
Print Assumptions c04_validate_sound.

Theorem c04_validate_complete : forall toks net cs s s',
  accepted toks net s cs s' -> validate_loop toks net s cs = (None, s').
Proof.
  intros toks net cs s s' H. induction H; cbn [validate_loop]; auto.
  apply validate_one_ok in H. rewrite H. exact IHaccepted.
Qed.
Print Assumptions c04_validate_complete.

Theorem c04_accepted_instances : forall toks net s cs s', accepted toks net s cs s' ->
  v_next s' = v_next s + Z.of_nat (length cs) /\
  map c_inst cs = map (fun k => v_next s + Z.of_nat k) (seq 0 (length cs)).
Proof.
  intros toks net s cs s' H. induction H.
  - cbn. split; [lia|auto].
  - destruct H as (H1 & _ & b & suffix & _ & _ & _ & nt & _ & _ & H8). subst s1. cbn [v_next length] in *.
    destruct IHaccepted as [I1 I2]. split; [lia|].
    cbn [map seq]. rewrite H1. replace (v_next s + Z.of_nat 0) with (v_next s) by lia. f_equal.
    rewrite I2, <- seq_shift, map_map. apply map_ext. intros k. lia.
Qed.
Print Assumptions c04_accepted_instances.

Theorem c04_accepted_linked : forall toks net s c1 c2 cs s',
  accepted toks net s (c1 :: c2 :: cs) s' ->
  exists b1 r1 b2 r2, c_chain c1 = b1 :: r1 /\ c_chain c2 = b2 :: r2 /\ tipset_eqb (last (c_chain c1) b1) b2 = true.
Proof.
  intros toks net s c1 c2 cs s' H. inversion H as [|? ? s1 ? ? Hc1 Hr]; subst.
  inversion Hr as [|? ? s2 ? ? Hc2 _]; subst.
  destruct Hc1 as (_ & _ & b1 & r1 & E1 & _ & _ & nt & _ & _ & S1).
  destruct Hc2 as (_ & _ & b2 & r2 & E2 & L2 & _).
  exists b1, r1, b2, r2. split; auto. split; auto. apply L2. subst s1. reflexivity.
Qed.
Print Assumptions c04_accepted_linked.

(* in-range signers with non-zero scaled power, a strong quorum of the table in force, the aggregate over exactly the
   DECIDE payload; nothing forces the signer list to be duplicate-free (a bitfield in the code) *)
Theorem c04_verify_sig_sound : forall t net c, verify_sig t net c = None ->
  let scaled := scaled_list (map e_power t) in
  Forall (fun i => i < Z.of_nat (length t) /\ nth (Z.to_nat i) scaled 0 <> 0) (c_signers c) /\
  isStrongQuorum (sumZ (map (fun i => nth (Z.to_nat i) scaled 0) (c_signers c))) (sumZ scaled) = true /\
  exists s, c_sig c = Some s /\ s_inst s = c_inst c /\ s_round s = 0 /\ s_phase s = 5 /\ s_net s = net /\
            s_commit s = c_commit c /\ s_pt s = c_pt c /\ chain_eqb (s_chain s) (c_chain c) = true /\
            list_eqbZ (s_signers s) (c_signers c) = true.
Proof.
  intros t net c H. cbv zeta. unfold verify_sig in H. cbv zeta in H. set (scaled := scaled_list (map e_power t)) in *.
  destruct (signer_power scaled (c_signers c) 0) as [e|pw] eqn:E; [discriminate|].
  apply signer_power_spec in E. destruct E as [F P].
  destruct (isStrongQuorum pw (sumZ scaled)) eqn:Q; cbn [negb] in H; [|discriminate].
  destruct (sig_matches t net c) eqn:M; [|discriminate].
  split.
  { eapply Forall_impl; [|exact F]. intros i [A B]. split; auto.
    unfold scaled, scaled_list in A. rewrite !map_length in A. exact A. }
  split. { rewrite P in Q. exact Q. }
  unfold sig_matches in M. destruct (c_sig c) as [s|]; [|discriminate].
  repeat (apply andb_true_iff in M; destruct M as [M ?]).
  exists s. repeat split; auto; try (apply Z.eqb_eq; assumption).
Qed.
Print Assumptions c04_verify_sig_sound.

Theorem c04_validate_prefix_report : forall toks net cs s e s',
  validate_loop toks net s cs = (Some e, s') ->
  exists k c, nth_error cs k = Some c /\
    validate_loop toks net s (firstn k cs) = (None, s') /\ validate_one toks net s' c = inl e.
Proof. exact validate_prefix_report. Qed.
Print Assumptions c04_validate_prefix_report.

Theorem c04_validate_certs_prefix : forall toks net prev next base cs n ch tb e,
  validate_certs toks net prev next base cs = (n, ch, tb, Some e) ->
  exists k, (k < length cs)%nat /\
    fst (fst (fst (validate_certs toks net prev next base (firstn k cs)))) = n /\
    snd (fst (fst (validate_certs toks net prev next base (firstn k cs)))) = ch /\
    n = next + Z.of_nat k.
Proof.
  intros toks net prev next base cs n ch tb e. unfold validate_certs. intros H.
  destruct (validate_loop toks net (mkV next [] prev None base) cs) as [[e'|] s] eqn:L; [|inversion H].
  inversion H; subst. apply c04_validate_prefix_report in L. destruct L as [k [c [N [V O]]]].
  exists k. split. { apply nth_error_Some. congruence. }
  rewrite V. cbn [fst snd]. split; auto. split; auto.
  apply c04_validate_sound, c04_accepted_instances in V. destruct V as [V _]. cbn [v_next] in V.
  rewrite firstn_length_le in V; auto. apply Nat.lt_le_incl, nth_error_Some. congruence.
Qed.
Print Assumptions c04_validate_certs_prefix.
