(* C17 — Snapshot export/import reproduces the store; malformed snapshots are rejected. *)
From Coq Require Import ZArith List Bool.
From F3 Require Import ListX Table Validate CertStore StoreProofs.
Import ListNotations.
Open Scope Z_scope.

Theorem c17_export_ok : forall toks s tabs, inv toks s tabs -> forall upto, s_first s <= upto < nxt s ->
  export s upto = inr (mkSnap (s_first s) upto (tabs (s_first s))
                         (range_certs (s_ds s) (s_first s) (Z.to_nat (upto - s_first s + 1)))).
Proof. exact export_ok. Qed.
Print Assumptions c17_export_ok.

Theorem c17_import_export_id : forall toks s tabs, inv toks s tabs -> forall upto, s_first s <= upto < nxt s ->
  exists sn d' s',
    export s upto = inr sn /\
    import_snapshot toks (s_freq s) ds_empty None sn = inr d' /\
    open_store (s_freq s) d' = inr s' /\ inv toks s' tabs /\
    s_first s' = s_first s /\ nxt s' = upto + 1 /\
    (forall i, s_first s <= i <= upto -> get s' i = get s i) /\
    (forall i, s_first s <= i <= upto + 1 -> store_power s' i = store_power s i).
Proof. exact import_export_id. Qed.
Print Assumptions c17_import_export_id.

Theorem c17_import_accepts_sound : forall toks freq d mf sn d',
  import_snapshot toks freq d mf sn = inr d' ->
  sn_certs sn <> [] /\ map c_inst (sn_certs sn) = zseq (sn_first sn) (length (sn_certs sn)) /\
  sn_first sn + Z.of_nat (length (sn_certs sn)) - 1 = sn_latest sn /\
  exists m, apply_many (sn_init sn) (map c_delta (sn_certs sn)) = inr m /\
            cid_token toks (canon m) = c_pt (List.last (sn_certs sn) (mkCert 0 [] 0 0 [] None [])).
Proof.
  intros toks freq d mf sn d' H. apply import_snapshot_inr in H. destruct H as (s0 & d1 & m1 & lc & L & E1 & E2).
  apply import_loop_inr in L; [|left; reflexivity]. destruct L as (L1 & _ & L3 & L4 & _).
  destruct (sn_certs sn) as [|c0 r] eqn:Ec; [discriminate|].
  inversion L4; subst lc. split; [discriminate|]. split; auto. split.
  - rewrite <- (last_inst cert0 r (sn_first sn) c0 L1). exact E1.
  - exists m1. split; auto.
Qed.
Print Assumptions c17_import_accepts_sound.

Theorem c17_import_rejects_gap_or_reorder : forall toks freq d mf sn,
  map c_inst (sn_certs sn) <> zseq (sn_first sn) (length (sn_certs sn)) ->
  exists e, import_snapshot toks freq d mf sn = inl e.
Proof.
  intros toks freq d mf sn Hbad. destruct (import_snapshot toks freq d mf sn) as [e|d'] eqn:E; [eauto|].
  apply c17_import_accepts_sound in E. tauto.
Qed.
Print Assumptions c17_import_rejects_gap_or_reorder.

Theorem c17_import_accepts_only_reproducing_deltas : forall toks freq d mf sn d',
  import_snapshot toks freq d mf sn = inr d' ->
  forall k c, nth_error (sn_certs sn) k = Some c ->
    exists mk, apply_many (sn_init sn) (map c_delta (firstn (S k) (sn_certs sn))) = inr mk /\
               cid_token toks (canon mk) = c_pt c.
Proof. exact import_accepts_only_reproducing_deltas. Qed.
Print Assumptions c17_import_accepts_only_reproducing_deltas.
