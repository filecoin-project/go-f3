(* C06: Termination once the network is timely.  PARTIAL by nature: the global statement (all honest participants decide
   within a bounded number of rounds after stabilisation) quantifies over timed multi-node executions and is monitored
   on real participants (harness c06.go); proved here on Layer N (Gpbft/Instance.v): no dead phase, the discipline of the
   single alarm slot, monotone progress, and over the network of instance models the fault-free timely corner. *)
From Coq Require Import ZArith List Bool.
From F3 Require Import GoInt QuorumGen Instance InstanceOrder InstanceVotes InstanceTimers.
From F3 Require InstanceDecide InstanceNoPanic Refine RefineNet HappyNet HappyLive HappyTimed.
Import ListNotations.
Open Scope Z_scope.

(* no dead phase: once the phase timeout has elapsed and the step's votes of a strong quorum are in, the step is left *)
Theorem C06_quality_progress : forall c i, phase_timeout_elapsed i = true -> i_phase (try_quality c i) = PREPARE.
Proof.
  intros c i H.
  pose proof (try_quality_spec c i) as S. cbv zeta in S. rewrite H, orb_true_r in S. apply S.
Qed.
Print Assumptions C06_quality_progress.
Theorem C06_converge_progress : forall c i w,
  phase_timeout_elapsed i = true ->
  c_find_best (r_conv (get_round i (i_round i))) (fun _ => true) = Some w -> is_candidate i (cv_chain w) = true ->
  i_phase (try_converge c i) = PREPARE.
Proof.
  intros c i w H1 H2 H3.
  apply (try_converge_adopts_best c i w H1 H2 H3).
Qed.
Print Assumptions C06_converge_progress.
Theorem C06_prepare_progress : forall c i,
  phase_timeout_elapsed i = true -> q_from_strong c (r_prep (get_round i (i_round i))) = true ->
  i_phase (try_prepare c i) = COMMIT.
Proof.
  intros c i H1 H2.
  apply try_prepare_cases; intros; try (apply begin_commit_cases; reflexivity); rewrite H1, H2 in *; discriminate.
Qed.
Print Assumptions C06_prepare_progress.
Theorem C06_commit_progress : forall c i sway,
  i_phase i = COMMIT -> i_err i = None ->
  phase_timeout_elapsed i = true -> q_from_strong c (r_comm (get_round i (i_round i))) = true ->
  let i' := try_commit c i (i_round i) sway in
  i_err i' <> None \/ i_phase i' = DECIDE \/ (i_round i' = i_round i + 1 /\ i_phase i' = CONVERGE).
Proof.
  intros c i sway Hp He Ht Hq. cbv zeta.
  assert (G : forall x, i_round x = i_round i -> let y := begin_next_round c x in
            i_err y <> None \/ i_phase y = DECIDE \/ (i_round y = i_round i + 1 /\ i_phase y = CONVERGE)).
  { intros x Hr. cbv zeta. apply begin_next_round_cases; intros; try (left; apply err_fail_some).
    apply begin_converge_cases; intros; [left; apply err_fail_some|right; right; split; [cbn; rewrite Hr; reflexivity|reflexivity]]. }
  apply try_commit_cases; intros; try (apply G; reflexivity).
  - left. apply err_fail_some.
  - apply begin_decide_cases; intros; [right; left; reflexivity|left; apply err_fail_some].
  - rewrite Ht, Hq in H. destruct H as [H|[H|H]]; [contradiction|contradiction|discriminate H].
  - rewrite Ht, Hq in H. discriminate H.
Qed.
Print Assumptions C06_commit_progress.
Theorem C06_decide_progress : forall c i v,
  i_err i = None -> q_find_sq_value (i_decision i) = FsvSome v ->
  let i' := try_decide c i in i_err i' <> None \/ i_phase i' = TERMINATED.
Proof.
  intros c i v He Hv. cbv zeta.
  apply try_decide_cases; intros; try (left; apply err_fail_some); [right; reflexivity|congruence].
Qed.
Print Assumptions C06_decide_progress.

(* the alarm slot after tryRebroadcast: an alarm; or a deadline in the future and no alarm; or nothing (phase alarm pending) *)
Theorem C06_rebroadcast_alarm : forall c i,
  let i' := try_rebroadcast c i in
  (exists t, hd_error (i_out i') = Some (OAlarm t)) \/
  (i' = i /\ exists rt, i_rtimeout i = Some rt /\ i_now i < rt) \/
  (i_out i' = i_out i /\ i_rtimeout i' = None /\ phase_timeout_elapsed i = false) \/
  (i' = i /\ i_rtimeout i = None /\ i_rattempts i <> 0).
Proof.
  intros c i.
  cbv zeta. unfold try_rebroadcast. destruct (i_rtimeout i) as [rt|] eqn:Er.
  - destruct (rt <=? i_now i) eqn:El.
    + left. repeat match goal with |- context [if ?b then _ else _] => destruct b end; eexists; reflexivity.
    + right. left. split; [reflexivity|]. exists rt. split; [reflexivity|]. apply Z.leb_gt in El. exact El.
  - destruct (i_rattempts i =? 0) eqn:Ea.
    + set (off := if phase_eqb (i_phase i) DECIDE || (c_rebro_round c <? i_round i) then i_now i else i_ptimeout i).
      destruct (phase_timeout_elapsed (set_timers i (i_ptimeout i) (Some (off + nthZ (c_rebro_after c) 0)) (i_rattempts i))) eqn:Ep; [left; eexists; reflexivity|].
      destruct (off + nthZ (c_rebro_after c) 0 <? _); [left; eexists; reflexivity|]. right. right. left. repeat split. exact Ep.
    + right. right. right. repeat split. apply Z.eqb_neq in Ea. exact Ea.
Qed.
Print Assumptions C06_rebroadcast_alarm.

(* "an alarm is always pending for an undecided participant" does NOT hold: a reachable state with no alarm set *)
Theorem C06_alarm_pending_refuted :
  let f := snd (run_hist lw_cfg (new_instance [1; 2] 0) lw_events) in
  i_phase f = PREPARE /\ i_round f = 1 /\ i_err f = None /\ i_out f = [] /\ i_rtimeout f = Some 6100 /\ i_ptimeout f = 6011 /\
  alarms (fst (run_hist lw_cfg (new_instance [1; 2] 0) lw_events)) = [2000; 3011; 6011; 5200; 6011].
Proof. exact alarm_pending_refuted. Qed.
Print Assumptions C06_alarm_pending_refuted.

Theorem C06_progress_monotone : forall c i e, Inv i -> wfe e -> progress_le i (step c i e).
Proof. exact progress_monotone. Qed.
Print Assumptions C06_progress_monotone.

(* the synchronous, fault-free corner of the global statement, over the NETWORK of instance models (RefineNet.v), proved
   for every committee and every schedule: honest members hold a strong quorum and propose the same chain, no faulty vote,
   every delivery within the receiver's phase timeout (so no timer is needed).  Once every vote cast has reached every
   honest member, every honest member has terminated -- in round 0 (C02: c02_happy_network_round0), with that chain. *)
Theorem C06_timely_faultfree_terminates : forall c honest input v,
  InstanceNoPanic.committee_wf c -> c_total c <= 65535 -> 0 <= c_rebro_round c -> (2 <= length v)%nat ->
  (forall k, honest k = true -> input k = v) ->
  forall hs, (forall k, RefineNet.member c honest k <-> In k hs) -> NoDup hs ->
  isStrongQuorum (InstanceDecide.sum_power c hs) (c_total c) = true ->
  forall acts, RefineNet.all_ok c honest (RefineNet.net0 input) acts -> HappyNet.all_happy c (RefineNet.net0 input) acts ->
  let n := RefineNet.nrun c (RefineNet.net0 input) acts in
  (forall k, RefineNet.member c honest k -> i_phase (RefineNet.n_inst n k) <> INITIAL) ->
  (forall k s p, RefineNet.member c honest k -> RefineNet.member c honest s -> HappyLive.four p ->
     In (Refine.voteS s 0 p v) (RefineNet.n_votes n) -> HappyLive.delivered acts k s p) ->
  forall k, RefineNet.member c honest k ->
    i_phase (RefineNet.n_inst n k) = TERMINATED /\ exists j, i_term (RefineNet.n_inst n k) = Some j /\ j_value j = v.
Proof. exact HappyLive.happy_all_decide. Qed.
Print Assumptions C06_timely_faultfree_terminates.

(* the same with synchrony as a time bound: member k starts at st k and every delivery to k happens at a clock reading in
   [st k, st k + B), B = min(QUALITY timeout, round-0 phase timeout) *)
Theorem C06_timely_faultfree_terminates_timed : forall c honest input v,
  InstanceNoPanic.committee_wf c -> c_total c <= 65535 -> 0 <= c_rebro_round c -> (2 <= length v)%nat ->
  (forall k, honest k = true -> input k = v) ->
  forall (st : Z -> Z) hs, (forall k, RefineNet.member c honest k <-> In k hs) -> NoDup hs ->
  isStrongQuorum (InstanceDecide.sum_power c hs) (c_total c) = true ->
  forall acts, RefineNet.all_ok c honest (RefineNet.net0 input) acts -> HappyTimed.all_timed c st acts ->
  let n := RefineNet.nrun c (RefineNet.net0 input) acts in
  (forall k, RefineNet.member c honest k -> i_phase (RefineNet.n_inst n k) <> INITIAL) ->
  (forall k s p, RefineNet.member c honest k -> RefineNet.member c honest s -> HappyLive.four p ->
     In (Refine.voteS s 0 p v) (RefineNet.n_votes n) -> HappyLive.delivered acts k s p) ->
  forall k, RefineNet.member c honest k ->
    i_phase (RefineNet.n_inst n k) = TERMINATED /\ exists j, i_term (RefineNet.n_inst n k) = Some j /\ j_value j = v.
Proof. exact HappyTimed.timed_all_decide. Qed.
Print Assumptions C06_timely_faultfree_terminates_timed.
