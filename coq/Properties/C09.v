(* C09 — Certificate store: gap-free immutable history with derivable power tables.
   Model: Store/CertStore.v (hand-written mirror of certstore/certstore.go over an abstract datastore). *)
From Coq Require Import ZArith List Bool Lia.
From F3 Require Import GoInt ListX Table Validate CertStore StoreProofs.
From F3 Require SubscribersProofs.
Import ListNotations.
Open Scope Z_scope.

Theorem c09_put_preserves_inv : forall toks s tabs c ws npt,
  inv toks s tabs -> put_plan toks s c = PutOk ws npt ->
  inv toks (fst (put toks s c)) (tabs_upd tabs (nxt s + 1) npt) /\ nxt (fst (put toks s c)) = nxt s + 1.
Proof. exact put_preserves_inv. Qed.
Print Assumptions c09_put_preserves_inv.

Theorem c09_put_accepted_is_successor : forall toks s c, fst (put toks s c) <> s ->
  c_inst c = nxt s /\ exists npt, step_table (s_pt s) c = inr npt /\ cid_token toks npt = c_pt c /\ npt <> [].
Proof.
  intros toks s c. unfold put. destruct (put_plan toks s c) as [e| |ws npt] eqn:P; cbn; try congruence.
  intros _. apply put_plan_ok in P. destruct P as (A & _ & _ & B & C & D & _). split; auto. exists npt. auto.
Qed.
Print Assumptions c09_put_accepted_is_successor.

Theorem c09_put_rejects_gap : forall toks s c, nxt s < c_inst c -> s_first s <= c_inst c -> c_chain c <> [] ->
  chain_valid (c_chain c) = true -> put toks s c = (s, Some EGap).
Proof. exact put_rejects_gap. Qed.
Print Assumptions c09_put_rejects_gap.

Theorem c09_put_stale_noop : forall toks s c, s_first s <= c_inst c < nxt s -> c_chain c <> [] ->
  chain_valid (c_chain c) = true -> put toks s c = (s, None).
Proof.
  intros toks s c H1 H3 H4. unfold put, put_plan. fold (nxt s).
  rewrite (proj2 (Z.ltb_ge (c_inst c) (s_first s))) by lia.
  destruct (c_chain c); [contradiction|]. rewrite H4. cbn [negb].
  rewrite (proj2 (Z.ltb_ge (nxt s) (c_inst c))), (proj2 (Z.ltb_lt (c_inst c) (nxt s))) by lia. reflexivity.
Qed.
Print Assumptions c09_put_stale_noop.

Theorem c09_put_error_unchanged : forall toks s c e, snd (put toks s c) = Some e -> fst (put toks s c) = s.
Proof. intros toks s c e. unfold put. destruct (put_plan toks s c); cbn; auto. discriminate. Qed.
Print Assumptions c09_put_error_unchanged.

Theorem c09_latest_monotone : forall toks s c, nxt s <= nxt (fst (put toks s c)).
Proof. exact latest_monotone. Qed.
Print Assumptions c09_latest_monotone.

Theorem c09_power_table_derivable : forall toks s tabs, inv toks s tabs ->
  forall i, s_first s <= i <= nxt s -> store_power s i = inr (tabs i).
Proof. exact power_table_derivable. Qed.
Print Assumptions c09_power_table_derivable.

Theorem c09_get_stored : forall toks s tabs, inv toks s tabs -> forall i, s_first s <= i < nxt s ->
  exists c, get s i = inr c /\ c_inst c = i.
Proof.
  intros toks s tabs I i Hi. destruct (i_certs _ _ _ I i Hi) as [c [A [B _]]]. exists c. unfold get. rewrite A. auto.
Qed.
Print Assumptions c09_get_stored.

Theorem c09_range_exact : forall toks s tabs, inv toks s tabs -> forall a b, s_first s <= a -> a <= b -> b < nxt s ->
  exists cs, store_range s a b = (cs, None) /\ map c_inst cs = zseq a (Z.to_nat (b - a + 1)).
Proof. exact range_exact. Qed.
Print Assumptions c09_range_exact.

Theorem c09_reopen_identity : forall toks s tabs, inv toks s tabs -> open_store (s_freq s) (s_ds s) = inr s.
Proof. exact reopen_identity. Qed.
Print Assumptions c09_reopen_identity.

Theorem c09_create_inv : forall toks freq d first pt, fresh d -> 0 < freq -> 0 <= first ->
  pt <> [] -> NoDup (ids pt) -> canon pt = pt ->
  exists s, create_store freq d first pt = inr s /\ inv toks s (fun _ => pt) /\ nxt s = first.
Proof. exact create_inv. Qed.
Print Assumptions c09_create_inv.

(* subscribers (Store/Subscribers.v: one-slot channels, Subscribe pre-loads the latest certificate, an accepted Put drains
   and then sends under the write lock): for EVERY sequence of subscriptions, accepted puts, reads by any subscriber at
   any time, closes and re-opens, no send ever blocks the writer, and every live subscriber has the latest certificate
   pending or has already taken it *)
Theorem c09_writers_never_blocked : forall latest evs,
  Subscribers.ss_blocked (fst (Subscribers.srun (Subscribers.ss0 latest) evs)) = false.
Proof. exact SubscribersProofs.writers_never_blocked. Qed.
Print Assumptions c09_writers_never_blocked.
Theorem c09_subscriber_observes_latest : forall latest evs k x,
  let st := fst (Subscribers.srun (Subscribers.ss0 latest) evs) in
  nth k (Subscribers.ss_subs st) None = Some x ->
  match Subscribers.sb_slot x with
  | Some c => Subscribers.ss_latest st = Some c
  | None => Subscribers.sb_seen x = Subscribers.ss_latest st end.
Proof. exact SubscribersProofs.subscriber_observes_latest. Qed.
Print Assumptions c09_subscriber_observes_latest.
Theorem c09_next_read_is_latest : forall latest evs k x got,
  let st := fst (Subscribers.srun (Subscribers.ss0 latest) evs) in
  nth k (Subscribers.ss_subs st) None = Some x -> snd (Subscribers.sstep st (Subscribers.SRead k got)) = true ->
  (got = -1 /\ Subscribers.sb_seen x = Subscribers.ss_latest st) \/ Subscribers.ss_latest st = Some got.
Proof. exact SubscribersProofs.next_read_is_latest. Qed.
Print Assumptions c09_next_read_is_latest.
