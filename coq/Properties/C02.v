(* C02 — Validity: decisions extend the instance base and stem from an honest input. *)
From Coq Require Import ZArith List Bool Lia.
From F3 Require Import Spec SpecProofs.
From F3 Require Instance InstanceNoPanic Refine RefineNet RefineRun InstanceQuorum HappyPath HappyInst HappyStep HappyNet HappyLive HappyTimed QuorumProofs.
Import ListNotations.
Open Scope Z_scope.

Theorem c02_validity : forall (power : nat -> Z) (committee : list nat) (honest : nat -> bool) (input : nat -> chain),
  (forall n, 0 <= power n) -> NoDup committee ->
  3 * byz_power power committee honest < total power committee ->
  forall vs v, reachable power committee honest input vs -> decides power committee honest vs v ->
    v <> [] /\ exists q, honest q = true /\ is_prefix v (input q).
Proof. intros power committee honest input Hp _ Hb. exact (validity power Hp committee honest input Hb). Qed.
Print Assumptions c02_validity.

Theorem c02_validity_base : forall (power : nat -> Z) (committee : list nat) (honest : nat -> bool) (input : nat -> chain),
  (forall n, 0 <= power n) -> NoDup committee ->
  3 * byz_power power committee honest < total power committee ->
  forall vs v base, reachable power committee honest input vs ->
    (forall q, honest q = true -> exists rest, input q = base :: rest) ->
    decides power committee honest vs v -> exists rest, v = base :: rest.
Proof. intros power committee honest input Hp _ Hb. exact (validity_base power Hp committee honest input Hb). Qed.
Print Assumptions c02_validity_base.

Theorem c02_conforms_reachable : forall (power : nat -> Z) (committee : list nat) (honest : nat -> bool) (input : nat -> chain),
  NoDup committee -> forall future past, reachable power committee honest input past ->
    conforms power committee honest input past future = true ->
    reachable power committee honest input (rev future ++ past).
Proof. intros power committee honest input Hn. exact (conforms_reachable power committee Hn honest input). Qed.
Print Assumptions c02_conforms_reachable.

(* validity for networks of the EXECUTABLE instance model (Layer N refines Layer S, RefineNet.v): whatever an honest member
   reports as decided is a non-empty prefix of the input chain of some honest member *)
Theorem c02_network_validity : forall (c : Instance.config) (honest : nat -> bool) (input : nat -> Instance.chain),
  InstanceNoPanic.committee_wf c -> Instance.c_total c <= 65535 -> (forall k, honest k = true -> input k <> []) ->
  3 * byz_power (Refine.power c) (Refine.committee c) honest < total (Refine.power c) (Refine.committee c) ->
  forall acts k j, RefineNet.all_ok c honest (RefineNet.net0 input) acts -> RefineNet.member c honest k ->
    Instance.i_term (RefineNet.n_inst (RefineNet.nrun c (RefineNet.net0 input) acts) k) = Some j ->
    Instance.j_value j <> [] /\ exists q, honest q = true /\ is_prefix (Instance.j_value j) (input q).
Proof. exact RefineNet.network_validity. Qed.
Print Assumptions c02_network_validity.

(* second sentence (happy path), step by step on the instance model: with a strong quorum for the value at hand the participant
   moves on FOR THAT VALUE at once (no timeout): QUALITY quorum for its input => PREPARE input; PREPARE quorum for the proposal
   => COMMIT it with that quorum as justification; COMMIT quorum => DECIDE; DECIDE quorum => the decision is reported.
   (QS: the invariant of quorum states built by one vote per sender, InstanceQuorum.v.)  The composition over a network under
   timing assumptions follows below (the c02_happy_network theorems). *)
Definition hp_committee (c : Instance.config) : Prop :=
  0 < Instance.c_total c < QuorumProofs.two62 /\ (forall s, 0 <= Instance.power_of c s) /\
  (forall l, NoDup l -> InstanceDecide.sum_power c l <= Instance.c_total c).
Theorem c02_happy_quality : forall c, hp_committee c -> forall i, Instance.i_input i <> [] -> Instance.i_proposal i = Instance.i_input i ->
  Instance.q_has_sq (Instance.i_quality i) (Instance.i_input i) = true ->
  exists rest, Instance.i_out (Instance.try_quality c i) =
                 Instance.OBroadcast (Instance.i_round i) Instance.PREPARE (Instance.i_input i) None false :: rest /\
               Instance.i_proposal (Instance.try_quality c i) = Instance.i_input i /\ Instance.i_phase (Instance.try_quality c i) = Instance.PREPARE.
Proof. intros c (H1 & H2 & H3). apply HappyPath.happy_quality; assumption. Qed.
Print Assumptions c02_happy_quality.
Theorem c02_happy_prepare : forall c, hp_committee c -> forall i,
  InstanceQuorum.QS c (Instance.r_prep (Instance.get_round i (Instance.i_round i))) -> Instance.i_proposal i <> [] ->
  Instance.q_has_sq (Instance.r_prep (Instance.get_round i (Instance.i_round i))) (Instance.i_proposal i) = true ->
  exists sg rest, Instance.i_out (Instance.try_prepare c i) =
      Instance.OBroadcast (Instance.i_round i) Instance.COMMIT (Instance.i_proposal i)
        (Some (Instance.build_just (Instance.i_round i) Instance.PREPARE (Instance.i_proposal i) sg)) false :: rest /\
    Instance.i_phase (Instance.try_prepare c i) = Instance.COMMIT.
Proof. intros c (H1 & H2 & H3). apply HappyPath.happy_prepare; assumption. Qed.
Print Assumptions c02_happy_prepare.
Theorem c02_happy_commit : forall c, hp_committee c -> forall i round sway x v,
  InstanceQuorum.QS c (Instance.r_comm (Instance.get_round i round)) ->
  Instance.q_find_sq_value (Instance.r_comm (Instance.get_round i round)) = Instance.FsvSome (x :: v) ->
  exists sg rest, Instance.i_out (Instance.try_commit c i round sway) =
      Instance.OBroadcast 0 Instance.DECIDE (x :: v) (Some (Instance.build_just round Instance.COMMIT (x :: v) sg)) false :: rest /\
    Instance.i_phase (Instance.try_commit c i round sway) = Instance.DECIDE.
Proof. intros c (H1 & H2 & H3). apply HappyPath.happy_commit; assumption. Qed.
Print Assumptions c02_happy_commit.
Theorem c02_happy_decide : forall c, hp_committee c -> forall i v,
  InstanceQuorum.QS c (Instance.i_decision i) -> Instance.q_find_sq_value (Instance.i_decision i) = Instance.FsvSome v ->
  exists sg, Instance.i_term (Instance.try_decide c i) = Some (Instance.build_just 0 Instance.DECIDE v sg) /\
             Instance.i_phase (Instance.try_decide c i) = Instance.TERMINATED.
Proof. intros c (H1 & H2 & H3). apply HappyPath.happy_decide; assumption. Qed.
Print Assumptions c02_happy_decide.

(* the happy path over the NETWORK of instance models (second sentence of C02):
   every honest member proposes v (at least one tipset above the base); no faulty member casts any vote; no timer fires
   and every delivery reaches its receiver before the receiver's phase timer expires.  Then, for every committee and
   every such schedule (any order of starts and deliveries, duplicates, omissions):
   every vote ever cast is a round-0 vote for v itself -- nobody votes bottom, a prefix or another chain, nobody leaves
   round 0 -- and whoever decides, decides v. *)
Theorem c02_happy_network_votes : forall c honest input v,
  InstanceNoPanic.committee_wf c -> Instance.c_total c <= 65535 -> 0 <= Instance.c_rebro_round c -> (2 <= length v)%nat ->
  (forall k, honest k = true -> input k = v) ->
  forall acts x, RefineNet.all_ok c honest (RefineNet.net0 input) acts -> HappyNet.all_happy c (RefineNet.net0 input) acts ->
  In x (RefineNet.n_votes (RefineNet.nrun c (RefineNet.net0 input) acts)) ->
  round x = 0%nat /\ vl x = Some v /\ ph x <> CONVERGE.
Proof. exact HappyNet.happy_votes. Qed.
Print Assumptions c02_happy_network_votes.
Theorem c02_happy_network_decision : forall c honest input v,
  InstanceNoPanic.committee_wf c -> Instance.c_total c <= 65535 -> 0 <= Instance.c_rebro_round c -> (2 <= length v)%nat ->
  (forall k, honest k = true -> input k = v) ->
  forall acts k j, RefineNet.all_ok c honest (RefineNet.net0 input) acts -> HappyNet.all_happy c (RefineNet.net0 input) acts ->
  RefineNet.member c honest k ->
  Instance.i_term (RefineNet.n_inst (RefineNet.nrun c (RefineNet.net0 input) acts) k) = Some j -> Instance.j_value j = v.
Proof. exact HappyNet.happy_decision. Qed.
Print Assumptions c02_happy_network_decision.
Theorem c02_happy_network_round0 : forall c honest input v,
  InstanceNoPanic.committee_wf c -> Instance.c_total c <= 65535 -> 0 <= Instance.c_rebro_round c -> (2 <= length v)%nat ->
  (forall k, honest k = true -> input k = v) ->
  forall acts k, RefineNet.all_ok c honest (RefineNet.net0 input) acts -> HappyNet.all_happy c (RefineNet.net0 input) acts ->
  RefineNet.member c honest k ->
  Instance.i_round (RefineNet.n_inst (RefineNet.nrun c (RefineNet.net0 input) acts) k) = 0.
Proof. exact HappyNet.happy_round0. Qed.
Print Assumptions c02_happy_network_round0.

(* non-vacuity: four members with skewed powers, unanimous input, every broadcast delivered to every member (own messages
   included) in first-in-first-out order and nothing else: the schedule satisfies both hypotheses and all four decide v *)
Definition hx_cfg := Instance.mkCfg [20000; 16384; 16384; 12767] 65535 5 3 2000 [2000; 3000; 4500] [700; 900; 1100].
Definition hx_honest := fun _ : nat => true.
Definition hx_input := fun _ : nat => [1; 2; 3].
Definition hx_acts := RefineRun.auto_actions hx_cfg hx_input [0; 1; 2; 3] 16.
Example c02_happy_network_example :
  InstanceRun.cfg_wfb hx_cfg = true /\
  RefineRun.all_okb hx_cfg hx_honest (RefineNet.net0 hx_input) hx_acts = true /\
  HappyNet.all_happyb hx_cfg (RefineNet.net0 hx_input) hx_acts = true /\
  length hx_acts = 68%nat /\
  map (fun k => option_map Instance.j_value (Instance.i_term (RefineNet.n_inst (RefineNet.nrun hx_cfg (RefineNet.net0 hx_input) hx_acts) k))) [0; 1; 2; 3]
    = [Some [1; 2; 3]; Some [1; 2; 3]; Some [1; 2; 3]; Some [1; 2; 3]].
Proof. vm_compute. repeat split. Qed.

(* progress on the happy path: "that chain itself IS decided".
   In addition to the hypotheses above: hs lists the honest members and together they hold a strong quorum; every honest
   member has started; every vote that was cast has been delivered to every honest member (in whatever order, interleaved
   in whatever way with the starts, duplicates allowed).  Then every honest member has terminated with a decision for v.
   No timer is involved: the participant re-examines the tally of its current step after every delivery. *)
Theorem c02_happy_network_all_decide : forall c honest input v,
  InstanceNoPanic.committee_wf c -> Instance.c_total c <= 65535 -> 0 <= Instance.c_rebro_round c -> (2 <= length v)%nat ->
  (forall k, honest k = true -> input k = v) ->
  forall hs, (forall k, RefineNet.member c honest k <-> In k hs) -> NoDup hs ->
  QuorumGen.isStrongQuorum (InstanceDecide.sum_power c hs) (Instance.c_total c) = true ->
  forall acts, RefineNet.all_ok c honest (RefineNet.net0 input) acts -> HappyNet.all_happy c (RefineNet.net0 input) acts ->
  let n := RefineNet.nrun c (RefineNet.net0 input) acts in
  (forall k, RefineNet.member c honest k -> Instance.i_phase (RefineNet.n_inst n k) <> Instance.INITIAL) ->
  (forall k s p, RefineNet.member c honest k -> RefineNet.member c honest s -> HappyLive.four p ->
     In (Refine.voteS s 0 p v) (RefineNet.n_votes n) -> HappyLive.delivered acts k s p) ->
  forall k, RefineNet.member c honest k ->
    Instance.i_phase (RefineNet.n_inst n k) = Instance.TERMINATED /\
    exists j, Instance.i_term (RefineNet.n_inst n k) = Some j /\ Instance.j_value j = v.
Proof. exact HappyLive.happy_all_decide. Qed.
Print Assumptions c02_happy_network_all_decide.

(* the same in terms of states: in ANY state reached by a happy schedule in which every honest member has started and has
   recorded (or no longer needs) every vote cast so far, every honest member has decided v -- there is no state in which
   the happy path is stuck short of the decision *)
Theorem c02_happy_network_saturated_decided : forall c honest input v,
  InstanceNoPanic.committee_wf c -> Instance.c_total c <= 65535 -> 0 <= Instance.c_rebro_round c -> (2 <= length v)%nat ->
  (forall k, honest k = true -> input k = v) ->
  forall hs, (forall k, RefineNet.member c honest k <-> In k hs) -> NoDup hs ->
  QuorumGen.isStrongQuorum (InstanceDecide.sum_power c hs) (Instance.c_total c) = true ->
  forall acts, RefineNet.all_ok c honest (RefineNet.net0 input) acts -> HappyNet.all_happy c (RefineNet.net0 input) acts ->
  let n := RefineNet.nrun c (RefineNet.net0 input) acts in
  (forall k, RefineNet.member c honest k -> Instance.i_phase (RefineNet.n_inst n k) <> Instance.INITIAL) ->
  HappyLive.saturated c honest v n ->
  forall k, RefineNet.member c honest k ->
    Instance.i_phase (RefineNet.n_inst n k) = Instance.TERMINATED /\
    exists j, Instance.i_term (RefineNet.n_inst n k) = Some j /\ Instance.j_value j = v.
Proof.
  intros c honest input v Hwf Hsc Hrr Hv Hun hs Hhs Hnd Hst acts Hok Hh n Hstarted Hsat.
  assert (X : RefineNet.NI c honest input n /\ HappyNet.HN c honest v n /\ HappyLive.HL c honest v n).
  { eapply HappyLive.live_run; try eassumption; [apply RefineNet.NI_net0|apply HappyNet.HN_net0|apply HappyLive.HL_net0]. }
  destruct X as (A & B & C). eapply HappyLive.saturated_decided; eassumption.
Qed.
Print Assumptions c02_happy_network_saturated_decided.

(* non-vacuity THROUGH the theorem: the 68-action schedule above meets every hypothesis of c02_happy_network_all_decide
   (four honest members 0..3 holding the whole power; all started; each of the 16 votes delivered to each member) *)
Lemma hx_members : forall k, RefineNet.member hx_cfg hx_honest k <-> In k [0; 1; 2; 3].
Proof.
  intros k. unfold RefineNet.member, hx_honest, Refine.nmem. cbn. split.
  - intros ((H1 & H2) & _). assert (k = 0 \/ k = 1 \/ k = 2 \/ k = 3) as [-> | [-> | [-> | ->]]] by lia; auto.
  - intros [<-|[<-|[<-|[<-|[]]]]]; (split; [lia|reflexivity]).
Qed.
Print Assumptions hx_members.
Example c02_happy_network_all_decide_example : forall k, RefineNet.member hx_cfg hx_honest k ->
  exists j, Instance.i_term (RefineNet.n_inst (RefineNet.nrun hx_cfg (RefineNet.net0 hx_input) hx_acts) k) = Some j /\
            Instance.j_value j = [1; 2; 3].
Proof.
  assert (Hc : InstanceRun.cfg_wfb hx_cfg = true /\
               RefineRun.all_okb hx_cfg hx_honest (RefineNet.net0 hx_input) hx_acts = true /\
               HappyNet.all_happyb hx_cfg (RefineNet.net0 hx_input) hx_acts = true /\
               forallb (fun k => negb (Instance.phase_eqb (Instance.i_phase (RefineNet.n_inst (RefineNet.nrun hx_cfg (RefineNet.net0 hx_input) hx_acts) k)) Instance.INITIAL) &&
                                 forallb (fun s => forallb (fun p => HappyLive.deliveredb hx_acts k s p)
                                                     [Instance.QUALITY; Instance.PREPARE; Instance.COMMIT; Instance.DECIDE]) [0; 1; 2; 3]) [0; 1; 2; 3] = true /\
               QuorumGen.isStrongQuorum (InstanceDecide.sum_power hx_cfg [0; 1; 2; 3]) (Instance.c_total hx_cfg) = true)
    by (vm_compute; repeat split).
  destruct Hc as (Hwfb & Hokb & Hhb & Hall & Hstrong).
  (* from here on nothing must be computed by unification: the schedule and the run stay folded *)
  Opaque hx_acts RefineNet.nrun HappyLive.deliveredb.
  pose proof (proj1 (forallb_forall _ _) Hall) as Hall'. cbv beta in Hall'. clear Hall.
  intros k Hk.
  assert (Hwf : InstanceNoPanic.committee_wf hx_cfg) by (apply InstanceNoPanic.cfg_wfb_spec; exact Hwfb).
  assert (Hnd : NoDup [0; 1; 2; 3]) by (repeat constructor; cbn; intuition lia).
  pose proof (c02_happy_network_all_decide hx_cfg hx_honest hx_input [1; 2; 3] Hwf ltac:(cbn; lia) ltac:(cbn; lia) ltac:(cbn; lia)
              (fun _ _ => eq_refl) [0; 1; 2; 3] hx_members Hnd Hstrong hx_acts) as T.
  assert (Hok : RefineNet.all_ok hx_cfg hx_honest (RefineNet.net0 hx_input) hx_acts) by (apply (RefineRun.all_okb_sound hx_cfg hx_honest); exact Hokb).
  assert (Hh : HappyNet.all_happy hx_cfg (RefineNet.net0 hx_input) hx_acts) by (eapply HappyNet.all_happyb_sound; exact Hhb).
  specialize (T Hok Hh). cbv zeta in T.
  assert (H1 : forall k', RefineNet.member hx_cfg hx_honest k' ->
            Instance.i_phase (RefineNet.n_inst (RefineNet.nrun hx_cfg (RefineNet.net0 hx_input) hx_acts) k') <> Instance.INITIAL).
  { intros k' Hk'. apply hx_members in Hk'. pose proof (Hall' k' Hk') as Hx.
    apply andb_true_iff in Hx. destruct Hx as (Hp & _). apply negb_true_iff in Hp. intros E. rewrite E in Hp. discriminate Hp. }
  assert (H2 : forall k' s p, RefineNet.member hx_cfg hx_honest k' -> RefineNet.member hx_cfg hx_honest s -> HappyLive.four p ->
            In (Refine.voteS s 0 p [1; 2; 3]) (RefineNet.n_votes (RefineNet.nrun hx_cfg (RefineNet.net0 hx_input) hx_acts)) ->
            HappyLive.delivered hx_acts k' s p).
  { intros k' s p Hk' Hs Hp _. apply hx_members in Hk'. apply hx_members in Hs. pose proof (Hall' k' Hk') as Hx.
    apply andb_true_iff in Hx. destruct Hx as (_ & Hd). pose proof (proj1 (forallb_forall _ _) Hd s Hs) as Hd2. cbv beta in Hd2.
    apply HappyLive.deliveredb_sound. apply (proj1 (forallb_forall _ _) Hd2 p).
    clear - Hp. destruct Hp as [-> | [-> | [-> | ->]]]; cbn [In]; auto. }
  destruct (T H1 H2 k Hk) as (_ & j & Ej & Ev). exists j. split; assumption.
Qed.
Transparent hx_acts RefineNet.nrun HappyLive.deliveredb.

(* the same with synchrony stated as a TIME BOUND (Gpbft/HappyTimed.v):
   st k = the clock reading at which member k starts; B = min(QUALITY timeout, round-0 phase timeout).  The schedule
   consists of starts (member k at st k) and deliveries only, and every delivery to k happens at a clock reading in
   [st k, st k + B) -- e.g. all members start within sigma, every message takes at most delta, sigma + 4 delta < B.
   Then no phase timer of a receiver has expired when a message reaches it (every round-0 phase timer is armed at the time
   of the event that began the phase plus its timeout, hence at or beyond st k + B), so all of the above applies: only
   round-0 votes for v are cast and, once everything cast has been delivered, every honest member has decided v. *)
Theorem c02_happy_network_all_decide_timed : forall c honest input v,
  InstanceNoPanic.committee_wf c -> Instance.c_total c <= 65535 -> 0 <= Instance.c_rebro_round c -> (2 <= length v)%nat ->
  (forall k, honest k = true -> input k = v) ->
  forall (st : Z -> Z) hs, (forall k, RefineNet.member c honest k <-> In k hs) -> NoDup hs ->
  QuorumGen.isStrongQuorum (InstanceDecide.sum_power c hs) (Instance.c_total c) = true ->
  forall acts, RefineNet.all_ok c honest (RefineNet.net0 input) acts -> HappyTimed.all_timed c st acts ->
  let n := RefineNet.nrun c (RefineNet.net0 input) acts in
  (forall k, RefineNet.member c honest k -> Instance.i_phase (RefineNet.n_inst n k) <> Instance.INITIAL) ->
  (forall k s p, RefineNet.member c honest k -> RefineNet.member c honest s -> HappyLive.four p ->
     In (Refine.voteS s 0 p v) (RefineNet.n_votes n) -> HappyLive.delivered acts k s p) ->
  forall k, RefineNet.member c honest k ->
    Instance.i_phase (RefineNet.n_inst n k) = Instance.TERMINATED /\
    exists j, Instance.i_term (RefineNet.n_inst n k) = Some j /\ Instance.j_value j = v.
Proof. exact HappyTimed.timed_all_decide. Qed.
Print Assumptions c02_happy_network_all_decide_timed.
Theorem c02_timed_schedule_is_happy : forall c honest input v,
  InstanceNoPanic.committee_wf c -> Instance.c_total c <= 65535 -> 0 <= Instance.c_rebro_round c -> (2 <= length v)%nat ->
  (forall k, honest k = true -> input k = v) ->
  forall (st : Z -> Z) acts, RefineNet.all_ok c honest (RefineNet.net0 input) acts -> HappyTimed.all_timed c st acts ->
  HappyNet.all_happy c (RefineNet.net0 input) acts.
Proof.
  intros c honest input v Hwf Hsc Hrr Hv Hun st acts Hok Ht.
  apply (HappyTimed.timed_is_happy c honest input v Hwf Hsc Hrr Hv Hun st acts (RefineNet.net0 input)
           (RefineNet.NI_net0 c honest input) (HappyNet.HN_net0 c honest input v) (HappyTimed.TI_net0 c honest input st) Hok Ht).
Qed.
Print Assumptions c02_timed_schedule_is_happy.
(* non-vacuity: the 68-action schedule keeps the time bound (all four members start at 0, B = 2000, deliveries at 1..16) *)
Example c02_timed_example : forallb (HappyTimed.timed_actb hx_cfg (fun _ => 0)) hx_acts = true /\ HappyTimed.Bnd hx_cfg = 2000.
Proof. vm_compute. split; reflexivity. Qed.
