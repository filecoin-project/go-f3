(* C07: Honest participants follow protocol discipline in everything they emit.
   Model: Gpbft/Instance.v (Layer N), tied to gpbft.Participant by the event-trace correspondence (harness c07.go). *)
From Coq Require Import ZArith List Bool Lia.
From F3 Require Import GoInt QuorumGen Instance InstanceRun InstanceOrder InstanceVotes InstanceConverge InstanceDecide InstanceQuorum InstanceNoPanic InstanceJust QuorumProofs.
From F3 Require Validator ValidatorProofs ValidatorBridge Refine RefineNode RefineNet.
From F3 Require Spec.
Import ListNotations.
Open Scope Z_scope.

(* at most one message per (round, step), over every sequence of deliveries and timers *)
Theorem C07_one_message_per_slot : forall c input now evs,
  Forall wfe evs -> NoDup (slots (fst (run_hist c (new_instance input now) evs))).
Proof. exact one_message_per_slot. Qed.
Print Assumptions C07_one_message_per_slot.

(* (round, step) progress never moves backwards, in every reachable state *)
Theorem C07_progress_monotone : forall c i e, Inv i -> wfe e -> progress_le i (step c i e).
Proof. exact progress_monotone. Qed.
Print Assumptions C07_progress_monotone.
Theorem C07_reachable_Inv : forall c input now evs, Forall wfe evs -> Inv (snd (run_hist c (new_instance input now) evs)).
Proof. exact reachable_Inv. Qed.
Print Assumptions C07_reachable_Inv.

(* the candidate ("EC compatible") set only grows; the input is never replaced *)
Theorem C07_candidates_monotone : forall c i e, Inv i -> wfe e -> Fc i (step c i e).
Proof. exact candidates_monotone. Qed.
Print Assumptions C07_candidates_monotone.

(* round-0 PREPARE value = longest prefix of the input with a strong QUALITY quorum, else the base *)
Theorem C07_longest_prefix : forall q v,
  let p := q_longest_prefix q v in
  is_prefix p v /\
  ((2 <= length p)%nat -> q_has_sq q p = true) /\
  (forall p', is_prefix p' v -> (length p < length p')%nat -> (2 <= length p')%nat -> q_has_sq q p' = false) /\
  (v <> [] -> (1 <= length p)%nat).
Proof. exact q_longest_prefix_spec. Qed.
Print Assumptions C07_longest_prefix.
Theorem C07_try_quality : forall c i,
  let p := q_longest_prefix (i_quality i) (i_input i) in
  let i' := try_quality c i in
  if q_has_sq (i_quality i) (i_proposal i) || phase_timeout_elapsed i then
    i_out i' = OBroadcast (i_round i) PREPARE p None false :: OAlarm (i_now i + nthZ (c_timeouts c) (i_round i)) :: i_out i /\
    i_proposal i' = p /\ i_value i' = p /\ i_phase i' = PREPARE /\ i_round i' = i_round i /\
    (forall p', In p' (all_prefixes p) -> is_candidate i' p' = true)
  else i' = i.
Proof. exact try_quality_spec. Qed.
Print Assumptions C07_try_quality.
Theorem C07_skip_from_quality : forall c i round v j,
  i_phase i = QUALITY -> j_phase j = COMMIT -> In (firstn 1 (i_input i)) (i_cands i) ->
  let p := q_longest_prefix (i_quality i) (i_input i) in
  let i' := skip_to_round c i round v j in
  (i_proposal i' = p /\ is_candidate i' p = true) \/ i_err i' <> None.
Proof.
  intros c i round v j Hp Hj Hb. cbv zeta. destruct (skip_to_round_spec c i round v j) as (l & p & w & -> & A & [(F & _)|[(_ & _ & -> & B & _)|(_ & F & _)]]);
    [rewrite Hj in F; discriminate F| |contradiction].
  apply begin_converge_cases; intros; [right; apply err_fail_some|left].
  split; [reflexivity|]. apply is_candidate_In. exact (settle_In i l Hb A B).
Qed.
Print Assumptions C07_skip_from_quality.

(* later rounds: the best-ticket CONVERGE value is adopted whenever it is a candidate *)
Theorem C07_converge_adopts_best : forall c i w,
  phase_timeout_elapsed i = true ->
  c_find_best (r_conv (get_round i (i_round i))) (fun _ => true) = Some w ->
  is_candidate i (cv_chain w) = true ->
  let i' := try_converge c i in
  i_proposal i' = cv_chain w /\ i_value i' = cv_chain w /\ i_phase i' = PREPARE /\
  i_out i' = OBroadcast (i_round i) PREPARE (cv_chain w) (Some (cv_just w)) false :: OAlarm (i_now i + nthZ (c_timeouts c) (i_round i)) :: i_out i.
Proof. exact try_converge_adopts_best. Qed.
Print Assumptions C07_converge_adopts_best.

(* COMMIT bottom only without a strong PREPARE quorum (or proof of one), and only once it is impossible or timed out *)
Theorem C07_commit_bottom : forall c i,
  i_phase i = PREPARE -> i_proposal i <> [] ->
  let i' := try_prepare c i in
  let prep := r_prep (get_round i (i_round i)) in
  i_phase i' = COMMIT -> i_value i' = [] ->
  q_has_sq prep (i_proposal i) = false /\
  (q_could_reach c prep (i_proposal i) false = false \/ (phase_timeout_elapsed i = true /\ q_from_strong c prep = true)).
Proof.
  intros c i Hp Hne. cbv zeta.
  assert (Hv : forall x, i_value (begin_commit c x) = i_value x) by (intros x; apply begin_commit_cases; reflexivity).
  apply try_prepare_cases.
  - intros _ _ Hval. rewrite Hv in Hval. contradiction.
  - intros Hf Hwhy _ _. split; [exact Hf|]. destruct Hwhy as [Hw|Hw]; [left; exact Hw|right; exact Hw].
  - intros _ Hph. rewrite Hp in Hph. discriminate Hph.
  - intros _ Hph. destruct (core_fields _ _ (quiet_core _ _ (quiet_try_rebroadcast c i))) as (_ & _ & _ & _ & _ & _ & _ & _ & E & _).
    rewrite E, Hp in Hph. discriminate Hph.
Qed.
Print Assumptions C07_commit_bottom.
Theorem C07_commit_justified : forall c i v0 v,
  i_value i = v0 :: v ->
  let i' := begin_commit c i in
  (exists j, hd_error (i_out i') = Some (OBroadcast (i_round i) COMMIT (v0 :: v) (Some j) false) /\ j_phase j = PREPARE) \/
  (i_out i' = OAlarm (i_now i + nthZ (c_timeouts c) (i_round i)) :: i_out i /\ i_err i' <> None).
Proof.
  intros c i v0 v Hv. cbv zeta. apply begin_commit_cases; intros; try congruence.
  - left. exists j. rewrite <- Hv. split; [reflexivity|assumption].
  - right. split; [reflexivity|apply err_fail_some].
  - right. split; [reflexivity|apply err_fail_some].
Qed.
Print Assumptions C07_commit_justified.

(* tryConverge never fails with "no values at CONVERGE", over EVERY sequence of deliveries and timers after the start: the
   participant's own CONVERGE value is always acceptable to itself (skipToRound entered from QUALITY keeps this because it settles the QUALITY outcome
   first) *)
Theorem C07_converge_never_fails : forall c input now evs,
  input <> [] -> Forall wfe evs ->
  i_err (snd (run_hist c (started c input now) evs)) <> Some ENoConvergeValue.
Proof. exact converge_never_fails. Qed.
Print Assumptions C07_converge_never_fails.

(* the explicit panics around quorum bookkeeping are unreachable: every PREPARE/COMMIT/DECIDE quorum state is built from
   q_empty by q_receive (one vote per sender), which maintains QS; on QS states no two values hold a strong quorum, a set
   hasStrongQuorum flag always yields signers, and tryDecide / beginDecide / tryPrepare->beginCommit do not panic.
   Hypotheses on the committee: 0 < total < 2^62, non-negative powers, distinct members' powers add up to at most the total *)
Definition committee_ok (c : config) : Prop :=
  0 < c_total c < two62 /\ (forall s, 0 <= power_of c s) /\ (forall l, NoDup l -> sum_power c l <= c_total c).
Theorem C07_QS_maintained : forall c, committee_ok c ->
  QS c q_empty /\ (forall q sender v, QS c q -> QS c (q_receive c q sender v)) /\ (forall q v j, QS c q -> QS c (q_receive_just q v j)).
Proof.
  intros c (H1 & H2 & H3). split; [apply QS_empty|split]; [intros; apply QS_receive; assumption|intros; apply QS_receive_just; assumption].
Qed.
Print Assumptions C07_QS_maintained.
Theorem C07_no_multiple_quorums : forall c, committee_ok c -> forall q, QS c q -> q_find_sq_value q <> FsvPanic.
Proof. intros c (H1 & H2 & H3) q. apply find_sq_value_no_panic; assumption. Qed.
Print Assumptions C07_no_multiple_quorums.
Theorem C07_quorum_always_found : forall c, committee_ok c -> forall q k, QS c q -> q_find_sq_for c q k <> FsqPanic.
Proof. intros c (H1 & H2 & H3) q k. apply find_sq_for_no_panic; assumption. Qed.
Print Assumptions C07_quorum_always_found.
Theorem C07_try_decide_no_panic : forall c, committee_ok c -> forall i,
  QS c (i_decision i) -> i_err i = None -> i_err (try_decide c i) = None.
Proof. intros c (H1 & H2 & H3) i. apply try_decide_no_panic; assumption. Qed.
Print Assumptions C07_try_decide_no_panic.
Theorem C07_begin_decide_no_panic : forall c, committee_ok c -> forall i round x v,
  QS c (r_comm (get_round i round)) -> q_find_sq_value (r_comm (get_round i round)) = FsvSome (x :: v) -> i_err i = None ->
  i_err (begin_decide c (set_pv i (i_proposal i) (x :: v)) round) = None.
Proof. intros c (H1 & H2 & H3) i round x v. apply begin_decide_no_panic; assumption. Qed.
Print Assumptions C07_begin_decide_no_panic.
Theorem C07_try_prepare_no_panic : forall c, committee_ok c -> forall i,
  QS c (r_prep (get_round i (i_round i))) -> i_err i = None ->
  i_err (try_prepare c i) <> Some PBeginCommit /\ i_err (try_prepare c i) <> Some PFindQuorum.
Proof. intros c (H1 & H2 & H3) i. apply try_prepare_no_panic; assumption. Qed.
Print Assumptions C07_try_prepare_no_panic.

(* run level: over EVERY event sequence (arbitrary deliveries, alarms, interleavings) of an instance whose committee is a
   real power table (non-negative scaled powers, ScaledTotal their sum, below 2^62), the instance never reports
   "multiple chains with strong quorum", "strong quorum exists but could not be found", a tryDecide / beginDecide without
   quorum, or a beginCommit without justification *)
Theorem C07_quorum_panics_unreachable : forall c input now evs e,
  committee_wf c -> Forall wfe evs ->
  i_err (snd (run_hist c (started c input now) evs)) = Some e ->
  e <> PMultiQuorum /\ e <> PFindQuorum /\ e <> PTryDecide /\ e <> PBeginDecide /\ e <> PBeginCommit.
Proof.
  intros c input now evs e Hwf Hw He. destruct (committee_wf_ok c Hwf) as (H1 & H2 & H3).
  pose proof (quorum_panics_unreachable c H1 H3 input now evs e Hw He) as H.
  repeat split; intros ->; apply H; exact I.
Qed.
Print Assumptions C07_quorum_panics_unreachable.
Theorem C07_committee_wf_ok : forall c, committee_wf c -> committee_ok c.
Proof. intros c H. apply committee_wf_ok. exact H. Qed.
Print Assumptions C07_committee_wf_ok.
(* the correspondence check evaluates cfg_wfb on the committee of every trace the real participant ran with *)
Theorem C07_checked_committee_wf : forall c, cfg_wfb c = true -> committee_wf c.
Proof. exact cfg_wfb_spec. Qed.
Print Assumptions C07_checked_committee_wf.
Example C07_committee_wf_nonvacuous : committee_wf (mkCfg [21845; 21845; 21844] 65534 5 3 2 [1; 2] [1]).
Proof. unfold committee_wf, two62; cbn. repeat split; try lia. repeat constructor; lia. Qed.

(* THE no-internal-error clause, at full strength on the model: for every committee that is a real power table, every
   input, every sequence of alarms and deliveries of messages that satisfy what validation guarantees (wfmb: round of the
   carried justification, CONVERGE never bottom, DECIDE at round 0; arbitrary senders, values, ranks, orders,
   duplicates and interleavings), the instance never records ANY internal error or panic *)
Theorem C07_no_internal_error : forall c input now evs,
  committee_wf c -> Forall (fun e => ev_okb e = true) evs ->
  i_err (snd (run_hist c (started c input now) evs)) = None.
Proof. intros c input now evs Hwf. destruct (committee_wf_ok c Hwf) as (H1 & H2 & H3). apply no_internal_error; assumption. Qed.
Print Assumptions C07_no_internal_error.
(* the example run below (after its EvStart) satisfies the hypotheses *)
Example C07_no_internal_error_nonvacuous :
  forallb ev_okb [ EvDeliver 10 (mkM 1 0 QUALITY [1; 2; 3] 0 None) None; EvAlarm 2000 None;
                   EvDeliver 2020 (mkM 1 0 COMMIT [1; 2] 0 (Some (mkJ 0 PREPARE [1; 2] [1; 2]))) None;
                   EvDeliver 2025 (mkM 2 1 CONVERGE [1] 7 (Some (mkJ 0 COMMIT [] [1; 2]))) None;
                   EvDeliver 2030 (mkM 1 0 DECIDE [1; 2] 0 (Some (mkJ 0 COMMIT [1; 2] [1; 2]))) None ] = true.
Proof. reflexivity. Qed.

(* "validated": a message the validator model (C05, Gpbft/Validator.v -- itself tied to gpbft/validator.go by correspondence)
   accepts on the one-shot path has the shape wfmb assumed above, whatever chains stand behind its value keys *)
Theorem C07_validated_is_wfmb : forall net cmt m sender rank v jv,
  ValidatorProofs.accepts net cmt None m = true ->
  0 <= Validator.v_round (Validator.g_vote m) < GoInt.two64 ->
  is_zero v = Validator.ch_is_zero (Validator.v_value (Validator.g_vote m)) ->
  wfmb (ValidatorBridge.to_inst m sender rank v jv) = true.
Proof. exact ValidatorBridge.accepts_wfmb. Qed.
Print Assumptions C07_validated_is_wfmb.

(* "every message it emits is valid under the protocol rules and acceptable to its peers" and "it only ever votes for a
   value that is a prefix of its own input or for which it has received proof of a strong quorum", on networks of the
   instance model (RefineNet): after ANY admissible schedule, every broadcast of an honest member is admissible for every
   peer (its vote is recorded, its justification has the shape validation enforces and is backed by a strong quorum whose
   honest members cast that vote), and a non-bottom value it votes for is a prefix of its input or has a strong quorum *)
Theorem C07_emitted_messages_acceptable : forall (c : config) (honest : nat -> bool) (input : nat -> chain),
  committee_wf c -> c_total c <= 65535 -> (forall k, honest k = true -> input k <> []) ->
  forall acts a k e, RefineNet.all_ok c honest (RefineNet.net0 input) acts ->
    RefineNet.aok c honest (RefineNet.nrun c (RefineNet.net0 input) acts) a -> RefineNet.act_event a = Some (k, e) ->
    forall r p v j t rank, In (OBroadcast r p v j t) (i_out (RefineNet.n_inst (RefineNet.nstep c (RefineNet.nrun c (RefineNet.net0 input) acts) a) k)) ->
      RefineNode.adm c honest (RefineNet.n_votes (RefineNet.nstep c (RefineNet.nrun c (RefineNet.net0 input) acts) a)) (mkM k r p v rank j) /\
      (v <> [] -> RefineNode.evid c honest input k (RefineNet.n_votes (RefineNet.nstep c (RefineNet.nrun c (RefineNet.net0 input) acts) a)) v).
Proof. exact RefineNet.network_emissions. Qed.
Print Assumptions C07_emitted_messages_acceptable.

(* at most one vote per (round, step) over the whole NETWORK history: an honest member's votes in the global set never
   conflict, whatever the schedule and whatever Byzantine members do *)
Theorem C07_network_one_vote_per_slot : forall (c : config) (honest : nat -> bool) (input : nat -> chain),
  committee_wf c -> c_total c <= 65535 -> (forall k, honest k = true -> input k <> []) ->
  forall acts s r p x y, RefineNet.all_ok c honest (RefineNet.net0 input) acts -> honest s = true ->
    In (Spec.V s r p x) (RefineNet.n_votes (RefineNet.nrun c (RefineNet.net0 input) acts)) ->
    In (Spec.V s r p y) (RefineNet.n_votes (RefineNet.nrun c (RefineNet.net0 input) acts)) -> x = y.
Proof. exact RefineNet.network_one_vote_per_slot. Qed.
Print Assumptions C07_network_one_vote_per_slot.

(* non-vacuity: a concrete run (3 members, subject 0 with input [1;2;3]) passes QUALITY, PREPARE, COMMIT and decides *)
Definition ex_cfg := mkCfg [10; 30; 30] 70 4 2 2000 [2000; 3000; 4500] [700; 900; 1100].
Definition ex_events : list event :=
  [ EvStart 0;
    EvDeliver 10 (mkM 1 0 QUALITY [1; 2; 3] 0 None) None; EvDeliver 11 (mkM 2 0 QUALITY [1; 2] 0 None) None;
    EvAlarm 2000 None;
    EvDeliver 2010 (mkM 1 0 PREPARE [1; 2] 0 None) None; EvDeliver 2011 (mkM 2 0 PREPARE [1; 2] 0 None) None;
    EvDeliver 2020 (mkM 1 0 COMMIT [1; 2] 0 (Some (mkJ 0 PREPARE [1; 2] [1; 2]))) None;
    EvDeliver 2021 (mkM 2 0 COMMIT [1; 2] 0 (Some (mkJ 0 PREPARE [1; 2] [1; 2]))) None;
    EvDeliver 2030 (mkM 1 0 DECIDE [1; 2] 0 (Some (mkJ 0 COMMIT [1; 2] [1; 2]))) None;
    EvDeliver 2031 (mkM 2 0 DECIDE [1; 2] 0 (Some (mkJ 0 COMMIT [1; 2] [1; 2]))) None ].
Example C07_nonvacuous :
  Forall wfe ex_events /\
  slots (fst (run_hist ex_cfg (new_instance [1; 2; 3] 0) ex_events)) = [(0, 1); (0, 3); (0, 4); (0, 5)] /\
  i_phase (snd (run_hist ex_cfg (new_instance [1; 2; 3] 0) ex_events)) = TERMINATED /\
  i_err (snd (run_hist ex_cfg (new_instance [1; 2; 3] 0) ex_events)) = None.
Proof. split; [repeat constructor; cbn; congruence|vm_compute; repeat split]. Qed.

From F3 Require MsgQueue MsgQueueProofs Lifecycle LifecycleProofs.
(* life cycle (Gpbft/Lifecycle.v: which instance exists when, the host's alarm slot, the hand-over of decisions; every
   combination of "this event terminates the instance", "the instance re-arms its alarm", "the host accepts the decision",
   "the host can provide a proposal" is allowed).  Between two StartInstanceAt calls of the host every instance is begun at
   most once and its decision handed over at most once -- so the instance model's "one message per (round, step)" is "one
   message per (instance, round, step)" of the participant; the instance number never decreases; after a failed hand-over
   nothing runs until the host starts an instance again. *)
Theorem C07_one_execution_per_instance : forall s i evs,
  LifecycleProofs.fresh_start s i -> LifecycleProofs.no_start evs = true ->
  let f := Lifecycle.lrun (Lifecycle.lstep s (Lifecycle.LStartAt i)) evs in NoDup (Lifecycle.l_execs f) /\ NoDup (Lifecycle.l_reported f).
Proof.
  intros s i evs Hf Hn f. destruct (LifecycleProofs.run_inv evs _ (LifecycleProofs.start_inv s i Hf) Hn) as (N1 & N2 & _). split; assumption.
Qed.
Print Assumptions C07_one_execution_per_instance.
Theorem C07_instance_number_monotone : forall evs s, LifecycleProofs.no_start evs = true -> Lifecycle.l_id s <= Lifecycle.l_id (Lifecycle.lrun s evs).
Proof.
  intros evs s. apply (LifecycleProofs.lrun_inv (fun s' => Lifecycle.l_id s <= Lifecycle.l_id s')); [|lia].
  intros s' e H He. exact (Z.le_trans _ _ _ H (LifecycleProofs.lstep_id_mono s' e He)).
Qed.
Print Assumptions C07_instance_number_monotone.
Theorem C07_idle_after_failed_handover : forall evs s, LifecycleProofs.idle s -> LifecycleProofs.no_start evs = true -> Lifecycle.lrun s evs = s.
Proof.
  intros evs s Hi. apply (LifecycleProofs.lrun_inv (fun s' => s' = s)); [|reflexivity].
  intros s' e -> He. exact (LifecycleProofs.idle_step s e Hi He).
Qed.
Print Assumptions C07_idle_after_failed_handover.
Theorem C07_failed_handover_is_idle : forall s (r : bool), Lifecycle.l_running s = true ->
  LifecycleProofs.idle (Lifecycle.handle s true r false) /\ Lifecycle.l_id (Lifecycle.handle s true r false) = Lifecycle.l_id s.
Proof. intros s r _. unfold Lifecycle.handle, LifecycleProofs.idle. cbn. repeat split. Qed.
Print Assumptions C07_failed_handover_is_idle.
(* the queue of messages for instances that have not started (Gpbft/MsgQueue.v): it holds exactly the first arrival of every
   (instance, sender, round, step) among the arrivals that are justified or within the look-ahead, one message per slot,
   nothing else; Drain hands over exactly the queued messages of the instance *)
Theorem C07_queue_keeps_every_slot : forall mr ms m, In m ms -> MsgQueueProofs.admissible mr m = true ->
  exists x, In x (MsgQueue.q_run mr ms) /\ MsgQueue.same_slot m x = true.
Proof. exact MsgQueueProofs.queue_keeps_every_slot. Qed.
Print Assumptions C07_queue_keeps_every_slot.
Theorem C07_queue_only_arrivals : forall mr ms x, In x (MsgQueue.q_run mr ms) -> In x ms /\ MsgQueueProofs.admissible mr x = true.
Proof.
  intros mr ms x. unfold MsgQueue.q_run.
  assert (G : forall q, In x (fold_left (MsgQueue.q_add mr) ms q) -> In x q \/ (In x ms /\ MsgQueueProofs.admissible mr x = true)).
  { induction ms as [|y ms IH]; intros q H; cbn [fold_left] in H; [left; exact H|].
    destruct (IH _ H) as [H1|(H1 & H2)]; [|right; split; [right; exact H1|exact H2]].
    apply MsgQueueProofs.q_add_spec in H1. destruct H1 as [H1|(-> & H2 & _)]; [left; exact H1|right; split; [left; reflexivity|exact H2]]. }
  intros H. destruct (G [] H) as [[]|H1]. exact H1.
Qed.
Print Assumptions C07_queue_only_arrivals.
Theorem C07_queue_one_per_slot : forall mr ms, MsgQueueProofs.slots_unique (MsgQueue.q_run mr ms).
Proof. intros mr ms. apply MsgQueueProofs.q_run_from_unique. intros a b []. Qed.
Print Assumptions C07_queue_one_per_slot.
Theorem C07_queued_messages_delivered_at_start : forall mr ms i m,
  In m ms -> MsgQueue.qm_inst m = i -> MsgQueueProofs.admissible mr m = true ->
  exists x, In x (fst (MsgQueue.q_drain (MsgQueue.q_run mr ms) i)) /\ MsgQueue.same_slot m x = true.
Proof. exact MsgQueueProofs.queued_messages_delivered_at_start. Qed.
Print Assumptions C07_queued_messages_delivered_at_start.

(* beginInstance with queued messages (Start, then ReceiveMany of what messageQueue.Drain returns): for every power-table
   committee, input, start time and queue of validated messages ordered by round, the instance records no internal error
   and all instance invariants hold afterwards (Gpbft/InstanceMany.v; the executable definitions are the ones replayed
   against the real participant by traceq_ok, which evaluates the two hypotheses on every drained queue) *)
From F3 Require InstanceMany.
Theorem C07_begin_with_queue_no_internal_error : forall c, InstanceNoPanic.committee_wf c -> forall input now ms,
  InstanceMany.queue_ok ms ->
  let i := InstanceRun.start_with_queue c (Instance.new_instance input 0) now ms in
  Instance.i_err i = None /\ InstanceOrder.Inv i /\ InstanceConverge.PI i /\ InstanceNoPanic.AllQ c i /\ InstanceJust.JI i.
Proof. exact InstanceMany.start_with_queue_no_internal_error. Qed.
Print Assumptions C07_begin_with_queue_no_internal_error.
