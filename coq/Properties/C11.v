(* C11 — WAL: acknowledged entries survive crashes and torn writes; purge is conservative.
   Model: Wal/Wal.v (hand-written mirror of internal/writeaheadlog/wal.go: directory of files, handle with
   closed files + active file), byte layer over an abstract self-delimiting codec. *)
From Coq Require Import ZArith List Bool Sorting.Permutation.
From F3 Require Import Wal WalProofs Codec CodecProofs SchemasGen.
Import ListNotations.
Open Scope Z_scope.

(* byte level: a torn tail (any proper prefix of one more record) never hides an acknowledged record and never
   decodes into a phantom one *)
Theorem c11_torn_tail_read : forall (entry : Type) (enc : entry -> list Z) (dec : list Z -> option (entry * list Z)),
  (forall e rest, dec (enc e ++ rest) = Some (e, rest)) -> (forall e, enc e <> []) ->
  (forall e p q, enc e = p ++ q -> q <> [] -> dec p = None) ->
  forall es e p q, enc e = p ++ q -> q <> [] -> read_file entry dec (concat (map enc es) ++ p) = es.
Proof. exact torn_tail_read. Qed.
Print Assumptions c11_torn_tail_read.

Theorem c11_clean_read : forall (entry : Type) (enc : entry -> list Z) (dec : list Z -> option (entry * list Z)),
  (forall e rest, dec (enc e ++ rest) = Some (e, rest)) -> (forall e, enc e <> []) ->
  (forall e p q, enc e = p ++ q -> q <> [] -> dec p = None) ->
  forall es, read_file entry dec (concat (map enc es)) = es.
Proof.
  intros entry enc dec A B C es. apply (clean_read_good entry enc dec (fun _ => True)); auto; [|apply Forall_forall; auto].
  destruct (dec []) as [[e r]|] eqn:D; auto. rewrite (C e [] (enc e) eq_refl (B e)) in D. discriminate.
Qed.
Print Assumptions c11_clean_read.

(* the contract is not an assumption for the real log: the WAL entry of the node is a GMessage (wal.go), whose codec
   schema s_walEntry is REGENERATED from /repo's cbor_gen.go on every run (Gen/SchemasGen.v); for every list of entries
   within the limits of the Go types, and any torn tail of one more entry, the file reads back exactly the complete
   entries -- no acknowledged entry hidden, no phantom entry *)
Theorem c11_wal_entry_schema_wf : wf_schema s_walEntry.
Proof. apply wf_schemab_sound. vm_compute. reflexivity. Qed.
Print Assumptions c11_wal_entry_schema_wf.
Theorem c11_wal_entry_torn_tail : forall cid_ok es e p q,
  Forall (wfv cid_ok s_walEntry) es -> wfv cid_ok s_walEntry e -> enc_of cid_ok s_walEntry e = p ++ q -> q <> [] ->
  read_file value (dec_of cid_ok s_walEntry) (concat (map (enc_of cid_ok s_walEntry) es) ++ p) = es.
Proof.
  intros cid_ok es e p q Hes He. destruct (codec_contract cid_ok s_walEntry c11_wal_entry_schema_wf) as [A [B C]].
  apply (torn_tail_read_good value _ _ (wfv cid_ok s_walEntry) A B C es e p q Hes He).
Qed.
Print Assumptions c11_wal_entry_torn_tail.
Theorem c11_wal_entry_clean_read : forall cid_ok es, Forall (wfv cid_ok s_walEntry) es ->
  read_file value (dec_of cid_ok s_walEntry) (concat (map (enc_of cid_ok s_walEntry) es)) = es.
Proof.
  intros cid_ok es Hes. destruct (codec_contract cid_ok s_walEntry c11_wal_entry_schema_wf) as [A [B _]].
  apply (clean_read_good value _ _ (wfv cid_ok s_walEntry) A B es (decode_nil cid_ok s_walEntry) Hes).
Qed.
Print Assumptions c11_wal_entry_clean_read.

Theorem c11_append_all : forall w r fresh w', wfw w -> append w r fresh = inr w' -> all w' = all w ++ [r] /\ wfw w'.
Proof. exact append_all. Qed.
Print Assumptions c11_append_all.

Theorem c11_flush_all : forall w, all (flush w) = all w.
Proof. exact all_flush. Qed.
Print Assumptions c11_flush_all.

Theorem c11_acked_survive : forall w r fresh cut x, wfw w -> In x (all w) ->
  In x (all (open_wal (crash_append w r fresh cut))).
Proof. exact acked_survive. Qed.
Print Assumptions c11_acked_survive.

Theorem c11_crash_files_grow_in_order : forall w r fresh cut, wfw w ->
  exists d1, (d1 = w_dir w \/ d1 = w_dir w ++ [mkFile fresh [] false]) /\
     Forall2 (grows r) d1 (crash_append w r fresh cut) /\ NoDup (map f_name (crash_append w r fresh cut)).
Proof. exact crash_files. Qed.
Print Assumptions c11_crash_files_grow_in_order.

Theorem c11_no_phantom : forall w r fresh cut (log : list rec),
  wfw w -> (forall f, In f (w_dir w) -> incl (f_recs f) log) ->
  incl (all (open_wal (crash_append w r fresh cut))) (log ++ [r]).
Proof. exact no_phantom. Qed.
Print Assumptions c11_no_phantom.

Theorem c11_open_all : forall d, NoDup (map f_name d) ->
  wfw (open_wal d) /\ w_active (open_wal d) = None /\
  all (open_wal d) = flat_map f_recs (sort_files d) /\ Permutation (sort_files d) d.
Proof. exact open_all. Qed.
Print Assumptions c11_open_all.

Theorem c11_restart_fresh_file : forall d r fresh w', NoDup (map f_name d) ->
  append (open_wal d) r fresh = inr w' -> find_file d fresh = None /\ recs_of (w_dir w') fresh = [r].
Proof. exact restart_fresh_file. Qed.
Print Assumptions c11_restart_fresh_file.

Theorem c11_purge_spec : forall w keep, wfw w ->
  (forall s, In s (w_closed w) -> st_max s < keep -> find_file (w_dir (purge w keep)) (st_name s) = None) /\
  (forall n, In n (handle_names w) ->
     (forall s, In s (w_closed w) -> st_name s = n -> keep <= st_max s) ->
     recs_of (w_dir (purge w keep)) n = recs_of (w_dir w) n) /\
  w_active (purge w keep) = w_active w /\
  w_closed (purge w keep) = filter (fun s => negb (st_max s <? keep)) (w_closed w).
Proof. exact purge_spec. Qed.
Print Assumptions c11_purge_spec.

Theorem c11_purge_conservative : forall w keep r, wfw w -> In r (all w) -> keep <= r_epoch r -> In r (all (purge w keep)).
Proof. exact purge_conservative. Qed.
Print Assumptions c11_purge_conservative.
