(* C11 model (no proofs): the write-ahead log over a directory of files, mirroring
   internal/writeaheadlog/wal.go.  Two layers:
   (1) byte layer: a file is a byte string; reading decodes records until the first failure
       (Section over an abstract self-delimiting codec);
   (2) record layer: a file is its list of complete records plus a flag "torn tail". *)
From Coq Require Import ZArith List Bool.
Import ListNotations.
Open Scope Z_scope.

(* ---------- byte layer ---------- *)
Section Bytes.
  Variable entry : Type.
  Variable enc : entry -> list Z.
  (* decoder: Some (e, rest) or None (EOF / malformed / truncated) *)
  Variable dec : list Z -> option (entry * list Z).

  (* readLogFile: decode records until the first error; read_file supplies fuel S (length bs) *)
  Fixpoint parse (fuel : nat) (bs : list Z) : list entry :=
    match fuel with
    | O => []
    | S f => match dec bs with
             | Some (e, rest) => e :: parse f rest
             | None => []
             end
    end.
  Definition read_file (bs : list Z) : list entry := parse (S (length bs)) bs.
End Bytes.

(* ---------- record layer ---------- *)
Record rec := mkRec { r_epoch : Z; r_id : Z; r_size : Z }.
Definition name := list Z.                       (* file name bytes; files are read back in lexical order *)
Record file := mkFile { f_name : name; f_recs : list rec; f_torn : bool }.

Fixpoint lex_ltb (a b : name) : bool :=
  match a, b with
  | [], [] => false
  | [], _ => true
  | _, [] => false
  | x :: a', y :: b' => if x <? y then true else if y <? x then false else lex_ltb a' b'
  end.
Fixpoint name_eqb (a b : name) : bool :=
  match a, b with [], [] => true | x :: a', y :: b' => (x =? y) && name_eqb a' b' | _, _ => false end.

Fixpoint insert_file (f : file) (l : list file) : list file :=
  match l with
  | [] => [f]
  | g :: r => if lex_ltb (f_name f) (f_name g) then f :: l else g :: insert_file f r
  end.
Definition sort_files (l : list file) : list file := fold_right insert_file [] l.

Definition max_epoch (rs : list rec) : Z := fold_left (fun m r => Z.max m (r_epoch r)) rs 0.
Definition file_size (f : file) : Z := fold_left (fun s r => s + r_size r) (f_recs f) 0.

Record stat := mkStat { st_name : name; st_max : Z }.
Record wal := mkWal {
  w_dir : list file;                 (* the directory *)
  w_closed : list stat;              (* logFiles *)
  w_active : option stat;            (* active.file / active.logStat *)
}.

Definition rotate_at : Z := 1048576.

Fixpoint find_file (d : list file) (n : name) : option file :=
  match d with [] => None | f :: r => if name_eqb (f_name f) n then Some f else find_file r n end.
Fixpoint update_file (d : list file) (n : name) (g : file -> file) : list file :=
  match d with [] => [] | f :: r => if name_eqb (f_name f) n then g f :: r else f :: update_file r n g end.
Fixpoint remove_file (d : list file) (n : name) : list file :=
  match d with [] => [] | f :: r => if name_eqb (f_name f) n then r else f :: remove_file r n end.

(* Open / hydrate: every *.wal.cbor file, in lexical name order, becomes a closed log file *)
Definition open_wal (d : list file) : wal :=
  mkWal d (map (fun f => mkStat (f_name f) (max_epoch (f_recs f))) (sort_files d)) None.

(* flush: the active file becomes a closed one *)
Definition flush (w : wal) : wal :=
  match w_active w with
  | None => w
  | Some a => mkWal (w_dir w) (w_closed w ++ [a]) None
  end.

Inductive werr := WExists.

(* rotate: flush + create a new (empty) file with the given fresh name (O_EXCL) *)
Definition rotate (w : wal) (fresh : name) : werr + wal :=
  let w := flush w in
  match find_file (w_dir w) fresh with
  | Some _ => inl WExists
  | None => inr (mkWal (w_dir w ++ [mkFile fresh [] false]) (w_closed w) (Some (mkStat fresh 0)))
  end.

Definition maybe_rotate (w : wal) (fresh : name) : werr + wal :=
  match w_active w with
  | None => rotate w fresh
  | Some a => match find_file (w_dir w) (st_name a) with
              | Some f => if rotate_at <? file_size f then rotate w fresh else inr w
              | None => inr w
              end
  end.

(* Append: rotate if needed, write the record at the end of the active file, acknowledge *)
Definition append (w : wal) (r : rec) (fresh : name) : werr + wal :=
  match maybe_rotate w fresh with
  | inl e => inl e
  | inr w1 =>
      match w_active w1 with
      | None => inr w1
      | Some a =>
          inr (mkWal (update_file (w_dir w1) (st_name a) (fun f => mkFile (f_name f) (f_recs f ++ [r]) (f_torn f)))
                     (w_closed w1) (Some (mkStat (st_name a) (Z.max (st_max a) (r_epoch r)))))
      end
  end.

(* Purge: remove every closed file whose max epoch is below keep *)
Definition purge (w : wal) (keep : Z) : wal :=
  let gone := filter (fun s => st_max s <? keep) (w_closed w) in
  mkWal (fold_left (fun d s => remove_file d (st_name s)) gone (w_dir w))
        (filter (fun s => negb (st_max s <? keep)) (w_closed w)) (w_active w).

(* All: closed files in order, then the active one; a torn tail is silently dropped *)
Definition recs_of (d : list file) (n : name) : list rec :=
  match find_file d n with Some f => f_recs f | None => [] end.
Definition all (w : wal) : list rec :=
  flat_map (fun s => recs_of (w_dir w) (st_name s)) (w_closed w) ++
  match w_active w with Some a => recs_of (w_dir w) (st_name a) | None => [] end.

(* crash during an append of `r`: the handle is lost; the file being written keeps the complete record
   (cut = whole record), nothing (cut = 0) or a torn tail (0 < cut < size) *)
Definition crash_append (w : wal) (r : rec) (fresh : name) (cut : Z) : list file :=
  match maybe_rotate w fresh with
  | inl _ => w_dir w
  | inr w1 =>
      match w_active w1 with
      | None => w_dir w1
      | Some a =>
          update_file (w_dir w1) (st_name a) (fun f =>
            if r_size r <=? cut then mkFile (f_name f) (f_recs f ++ [r]) (f_torn f)
            else if cut <=? 0 then f else mkFile (f_name f) (f_recs f) true)
      end
  end.
