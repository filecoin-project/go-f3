From Coq Require Import ZArith List Bool Lia Sorting.Permutation.
From F3 Require Import ListX Wal.
Import ListNotations.
Open Scope Z_scope.

Lemma nodup_map_inj {A B} (f : A -> B) l x y : NoDup (map f l) -> In x l -> In y l -> f x = f y -> x = y.
Proof.
  induction l as [|a l IH]; cbn; [tauto|]. intros N Hx Hy E. inversion N as [|? ? Na Nl]; subst.
  destruct Hx as [->|Hx], Hy as [->|Hy]; auto; exfalso; apply Na; [rewrite E|rewrite <- E]; apply in_map; assumption.
Qed.

Lemma Forall2_refl {A} (R : A -> A -> Prop) : (forall x, R x x) -> forall l, Forall2 R l l.
Proof. intros H l. induction l; constructor; auto. Qed.

Lemma Forall2_in_l {A B} (R : A -> B -> Prop) l l' : Forall2 R l l' -> forall x, In x l -> exists y, In y l' /\ R x y.
Proof.
  induction 1 as [|a b l l' Hab _ IH]; intros x Hin; [destruct Hin|]. destruct Hin as [->|Hin].
  - exists b. cbn. auto.
  - destruct (IH x Hin) as (y & Hy & Hr). exists y. cbn. auto.
Qed.

Lemma Forall2_in_r {A B} (R : A -> B -> Prop) l l' : Forall2 R l l' -> forall y, In y l' -> exists x, In x l /\ R x y.
Proof.
  induction 1 as [|a b l l' Hab _ IH]; intros y Hin; [destruct Hin|]. destruct Hin as [->|Hin].
  - exists a. cbn. auto.
  - destruct (IH y Hin) as (x & Hx & Hr). exists x. cbn. auto.
Qed.

Lemma flat_map_ext_in {A B} (f g : A -> list B) l : (forall a, In a l -> f a = g a) -> flat_map f l = flat_map g l.
Proof. induction l as [|a l IH]; cbn; intros H; auto. rewrite H, IH; auto. Qed.

Section BytesProofs.
  Variable entry : Type.
  Variable enc : entry -> list Z.
  Variable dec : list Z -> option (entry * list Z).
  (* the entries the log is used with (for the real WAL: GMessage values within the limits of the Go types) *)
  Variable good : entry -> Prop.
  (* the codec contract -- PROVED for the cbor-gen codec of the real entry type in Enc/CodecProofs.v and instantiated
     in Properties/C11.v (c11_wal_entry_torn_tail etc.): self-delimiting round trip, every encoding is non-empty, and a proper
     prefix of an encoding does not decode *)
  Hypothesis dec_enc : forall e rest, good e -> dec (enc e ++ rest) = Some (e, rest).
  Hypothesis enc_nonempty : forall e, good e -> enc e <> [].
  Hypothesis dec_prefix : forall e p q, good e -> enc e = p ++ q -> q <> [] -> dec p = None.

  Lemma parse_complete : forall es fuel tail, Forall good es -> (length es < fuel)%nat -> dec tail = None ->
    parse entry dec fuel (concat (map enc es) ++ tail) = es.
  Proof.
    induction es as [|e es IH]; intros fuel tail Hg Hf Ht; destruct fuel as [|f]; try (cbn in Hf; lia).
    - cbn. rewrite Ht. reflexivity.
    - inversion Hg as [|? ? Ge Ges]; subst. cbn [map concat]. rewrite <- app_assoc. cbn [parse]. rewrite dec_enc by exact Ge.
      f_equal. apply IH; auto. cbn in Hf. lia.
  Qed.

  Lemma length_concat_ge es : Forall good es -> (length es <= length (concat (map enc es)))%nat.
  Proof.
    induction 1 as [|e es Ge _ IH]; cbn; [lia|]. rewrite app_length.
    pose proof (enc_nonempty e Ge). destruct (enc e); [contradiction|cbn; lia].
  Qed.

  Lemma read_records es tail : Forall good es -> dec tail = None ->
    read_file entry dec (concat (map enc es) ++ tail) = es.
  Proof.
    intros Hg Ht. apply parse_complete; auto. rewrite app_length. pose proof (length_concat_ge es Hg). lia.
  Qed.

  Theorem torn_tail_read_good es e p q : Forall good es -> good e -> enc e = p ++ q -> q <> [] ->
    read_file entry dec (concat (map enc es) ++ p) = es.
  Proof. intros Hg Ge E Q. apply read_records; [exact Hg | exact (dec_prefix e p q Ge E Q)]. Qed.

  Theorem clean_read_good es : dec [] = None -> Forall good es -> read_file entry dec (concat (map enc es)) = es.
  Proof. intros Hnil Hg. rewrite <- (app_nil_r (concat _)). apply read_records; assumption. Qed.
End BytesProofs.

Section BytesProofsAll.
  Variable entry : Type.
  Variable enc : entry -> list Z.
  Variable dec : list Z -> option (entry * list Z).
  Hypothesis dec_enc : forall e rest, dec (enc e ++ rest) = Some (e, rest).
  Hypothesis enc_nonempty : forall e, enc e <> [].
  Hypothesis dec_prefix : forall e p q, enc e = p ++ q -> q <> [] -> dec p = None.
  Theorem torn_tail_read es e p q : enc e = p ++ q -> q <> [] ->
    read_file entry dec (concat (map enc es) ++ p) = es.
  Proof.
    intros E Q. apply (read_records entry enc dec (fun _ => True)); auto.
    - apply Forall_forall; auto.
    - exact (dec_prefix e p q E Q).
  Qed.
End BytesProofsAll.

Lemma name_eqb_eq a b : name_eqb a b = true <-> a = b. Proof. exact (eqb_listZ_eq a b). Qed.
Lemma name_eqb_refl a : name_eqb a a = true. Proof. exact (eqb_listZ_refl a). Qed.
Lemma name_eqb_neq a b : a <> b -> name_eqb a b = false. Proof. exact (eqb_listZ_neq a b). Qed.

Lemma find_update_same d n g : (forall f, f_name (g f) = f_name f) ->
  find_file (update_file d n g) n = option_map g (find_file d n).
Proof.
  intros Hg. induction d as [|f r IH]; cbn; auto. destruct (name_eqb (f_name f) n) eqn:E; cbn.
  - rewrite Hg, E. reflexivity.
  - rewrite E. exact IH.
Qed.
Lemma find_update_other d n n' g : (forall f, f_name (g f) = f_name f) -> n' <> n ->
  find_file (update_file d n g) n' = find_file d n'.
Proof.
  intros Hg Hn. induction d as [|f r IH]; cbn; auto. destruct (name_eqb (f_name f) n) eqn:E; cbn.
  - rewrite Hg. apply name_eqb_eq in E. rewrite E. rewrite !(name_eqb_neq n n') by auto. reflexivity.
  - destruct (name_eqb (f_name f) n'); auto.
Qed.
Lemma find_app d f n : find_file (d ++ [f]) n =
  match find_file d n with Some x => Some x | None => if name_eqb (f_name f) n then Some f else None end.
Proof. induction d as [|g r IH]; cbn; auto. destruct (name_eqb (f_name g) n); auto. Qed.
Lemma find_file_Some d n f : find_file d n = Some f -> In f d /\ f_name f = n.
Proof.
  induction d as [|g r IH]; cbn; [discriminate|]. destruct (name_eqb (f_name g) n) eqn:E.
  - intros [= <-]. apply name_eqb_eq in E. auto.
  - intros H. apply IH in H. tauto.
Qed.
Lemma find_none_names d n : find_file d n = None <-> ~ In n (map f_name d).
Proof.
  induction d as [|g r IH]; cbn; [tauto|]. destruct (name_eqb (f_name g) n) eqn:E.
  - apply name_eqb_eq in E. split; [discriminate|]. intros H. exfalso. apply H. auto.
  - rewrite IH. split; intros H; [intros [H1|H1]; [apply name_eqb_eq in H1; congruence | auto] | tauto].
Qed.
Lemma find_file_In d f : NoDup (map f_name d) -> In f d -> find_file d (f_name f) = Some f.
Proof.
  intros N Hf. destruct (find_file d (f_name f)) as [g|] eqn:F.
  - apply find_file_Some in F. destruct F as [Hg E]. rewrite (nodup_map_inj f_name d g f N Hg Hf E). reflexivity.
  - apply find_none_names in F. exfalso. apply F, in_map, Hf.
Qed.

Lemma names_update d n g : (forall f, f_name (g f) = f_name f) -> map f_name (update_file d n g) = map f_name d.
Proof.
  intros Hg. induction d as [|f l IH]; cbn; auto. destruct (name_eqb (f_name f) n); cbn; [rewrite Hg|rewrite IH]; reflexivity.
Qed.

Lemma recs_of_new_file d fresh b n : recs_of (d ++ [mkFile fresh [] b]) n = recs_of d n.
Proof. unfold recs_of. rewrite find_app. destruct (find_file d n); auto. cbn. destruct (name_eqb fresh n); reflexivity. Qed.

Definition handle_names (w : wal) : list name :=
  map st_name (w_closed w) ++ match w_active w with Some a => [st_name a] | None => [] end.

Definition wfw (w : wal) : Prop :=
  NoDup (map f_name (w_dir w)) /\ NoDup (handle_names w) /\
  (forall n, In n (handle_names w) -> In n (map f_name (w_dir w))) /\
  (forall s, In s (w_closed w) \/ w_active w = Some s -> st_max s = max_epoch (recs_of (w_dir w) (st_name s))).

Lemma in_handle_closed w s : In s (w_closed w) -> In (st_name s) (handle_names w).
Proof. intros H. unfold handle_names. apply in_or_app. left. apply in_map; auto. Qed.
Lemma in_handle_active w a : w_active w = Some a -> In (st_name a) (handle_names w).
Proof. intros E. unfold handle_names. rewrite E. apply in_snoc. auto. Qed.

Lemma wfw_active_found w a : wfw w -> w_active w = Some a -> exists f, find_file (w_dir w) (st_name a) = Some f.
Proof.
  intros (_ & _ & C & _) Ea. destruct (find_file (w_dir w) (st_name a)) eqn:F; eauto.
  apply find_none_names in F. exfalso. apply F, C, in_handle_active, Ea.
Qed.
Lemma wfw_closed_not_active w a s : wfw w -> w_active w = Some a -> In s (w_closed w) -> st_name s <> st_name a.
Proof.
  intros (_ & B & _) Ea Hs E. unfold handle_names in B. rewrite Ea in B. apply NoDup_remove_2 in B. apply B.
  rewrite app_nil_r, <- E. apply in_map, Hs.
Qed.
Lemma wfw_closed_inj w s s' : wfw w -> In s (w_closed w) -> In s' (w_closed w) -> st_name s = st_name s' -> s = s'.
Proof. intros (_ & B & _). apply nodup_map_inj. exact (nodup_app_l _ _ B). Qed.

Lemma flush_dir w : w_dir (flush w) = w_dir w.
Proof. unfold flush. destruct (w_active w); reflexivity. Qed.
Lemma flush_active w : w_active (flush w) = None.
Proof. unfold flush. destruct (w_active w) eqn:E; auto. Qed.

Lemma all_flush w : all (flush w) = all w.
Proof.
  unfold flush, all. destruct (w_active w) as [a|] eqn:E; cbn [w_closed w_active w_dir].
  - rewrite flat_map_app. cbn. rewrite !app_nil_r. reflexivity.
  - rewrite E. reflexivity.
Qed.

Lemma handle_names_flush w : handle_names (flush w) = handle_names w.
Proof.
  unfold flush, handle_names. destruct (w_active w) as [a|] eqn:E; cbn [w_closed w_active].
  - rewrite map_app. cbn. rewrite app_nil_r. reflexivity.
  - rewrite E. reflexivity.
Qed.

Lemma wfw_flush w : wfw w -> wfw (flush w).
Proof.
  intros (A & B & C & D). unfold wfw. rewrite handle_names_flush, flush_dir, flush_active. repeat split; auto.
  intros s [Hs|Hs]; [|discriminate]. apply D. unfold flush in Hs. destruct (w_active w) as [a|]; [|auto].
  apply in_snoc in Hs. destruct Hs as [Hs| ->]; auto.
Qed.

Lemma max_epoch_app rs r : max_epoch (rs ++ [r]) = Z.max (max_epoch rs) (r_epoch r).
Proof. unfold max_epoch. rewrite fold_left_app. reflexivity. Qed.

Lemma rotate_spec w fresh w1 : wfw w -> rotate w fresh = inr w1 ->
  wfw w1 /\ all w1 = all w /\ w_dir w1 = w_dir w ++ [mkFile fresh [] false] /\ exists a, w_active w1 = Some a.
Proof.
  intros Hw. unfold rotate. rewrite <- (all_flush w), <- (flush_dir w).
  pose proof (wfw_flush _ Hw) as (A & B & C & D). pose proof (flush_active w) as Hact.
  destruct (find_file (w_dir (flush w)) fresh) eqn:Ff; [discriminate|]. intros [= <-].
  assert (E0 : recs_of (w_dir (flush w)) fresh = []) by (unfold recs_of; rewrite Ff; reflexivity).
  apply find_none_names in Ff. unfold handle_names in B, C. rewrite Hact, app_nil_r in B, C.
  split; [|split; [|split; [reflexivity|eexists; reflexivity]]].
  - unfold wfw, handle_names. cbn [w_dir w_closed w_active st_name]. rewrite map_app. cbn [map f_name]. repeat split.
    + apply nodup_snoc; auto.
    + apply nodup_snoc; auto.
    + intros n Hn. apply in_snoc. apply in_snoc in Hn. destruct Hn; auto.
    + intros s Hs. rewrite recs_of_new_file. destruct Hs as [Hs|[= <-]]; [apply D; auto|]. cbn [st_name]. rewrite E0. reflexivity.
  - unfold all. cbn [w_dir w_closed w_active st_name]. rewrite Hact, recs_of_new_file, E0.
    apply f_equal2; [|reflexivity]. apply flat_map_ext. intros s. apply recs_of_new_file.
Qed.

Lemma maybe_rotate_cases w fresh :
  maybe_rotate w fresh = rotate w fresh \/ maybe_rotate w fresh = inr w /\ exists a, w_active w = Some a.
Proof.
  unfold maybe_rotate. destruct (w_active w) as [a|]; auto.
  destruct (find_file (w_dir w) (st_name a)) as [fa|]; [destruct (rotate_at <? file_size fa)|]; eauto.
Qed.

Lemma maybe_rotate_spec w fresh w1 : wfw w -> maybe_rotate w fresh = inr w1 ->
  wfw w1 /\ all w1 = all w /\ (w_dir w1 = w_dir w \/ w_dir w1 = w_dir w ++ [mkFile fresh [] false]) /\
  exists a, w_active w1 = Some a.
Proof.
  intros Hw M. destruct (maybe_rotate_cases w fresh) as [E|[E Ha]]; rewrite E in M.
  - destruct (rotate_spec _ _ _ Hw M) as (A & B & C & D). auto.
  - injection M as <-. auto.
Qed.

Theorem append_all w r fresh w' : wfw w -> append w r fresh = inr w' ->
  all w' = all w ++ [r] /\ wfw w'.
Proof.
  intros Hw. unfold append. destruct (maybe_rotate w fresh) as [e|w1] eqn:M; [discriminate|].
  destruct (maybe_rotate_spec _ _ _ Hw M) as (W1 & <- & _ & a & Ea). rewrite Ea. intros [= <-]. clear w Hw M.
  (* what remains is the write into the active file of w1 *)
  destruct (wfw_active_found _ _ W1 Ea) as [fa Fa]. pose proof (fun s => wfw_closed_not_active w1 a s W1 Ea) as Hne.
  destruct W1 as (A & B & C & D). set (d' := update_file (w_dir w1) (st_name a) _).
  assert (Hother : forall s, In s (w_closed w1) -> recs_of d' (st_name s) = recs_of (w_dir w1) (st_name s)).
  { intros s Hs. unfold recs_of, d'. rewrite find_update_other; auto. }
  assert (Hself : recs_of d' (st_name a) = recs_of (w_dir w1) (st_name a) ++ [r]).
  { unfold recs_of, d'. rewrite find_update_same by auto. rewrite Fa. reflexivity. }
  split.
  - unfold all. cbn [w_dir w_closed w_active st_name]. rewrite (flat_map_ext_in _ _ _ Hother), Hself, Ea, app_assoc. reflexivity.
  - unfold wfw, handle_names in *. cbn [w_dir w_closed w_active st_name].
    replace (map f_name d') with (map f_name (w_dir w1)) by (symmetry; apply names_update; reflexivity). rewrite Ea in B, C.
    repeat split; auto. intros s [Hs|[= <-]].
    + rewrite Hother by auto. apply D. auto.
    + cbn [st_name st_max]. rewrite Hself, max_epoch_app. f_equal. apply D. auto.
Qed.

Lemma max_epoch_ge rs r : In r rs -> r_epoch r <= max_epoch rs.
Proof. apply (fold_left_max_spec r_epoch rs 0). Qed.

Lemma find_remove_same d n : NoDup (map f_name d) -> find_file (remove_file d n) n = None.
Proof.
  induction d as [|f r IH]; cbn; auto. intros Hn. inversion Hn; subst. destruct (name_eqb (f_name f) n) eqn:E.
  - apply name_eqb_eq in E. subst n. apply find_none_names. auto.
  - cbn. rewrite E. auto.
Qed.
Lemma find_remove_other d n n' : n' <> n -> find_file (remove_file d n) n' = find_file d n'.
Proof.
  intros Hn. induction d as [|f r IH]; cbn; auto. destruct (name_eqb (f_name f) n) eqn:E.
  - apply name_eqb_eq in E. rewrite E, (name_eqb_neq n n') by auto. reflexivity.
  - cbn. destruct (name_eqb (f_name f) n'); auto.
Qed.
Lemma names_remove_incl d n x : In x (map f_name (remove_file d n)) -> In x (map f_name d).
Proof. induction d as [|f r IH]; cbn; auto. destruct (name_eqb (f_name f) n); cbn; tauto. Qed.
Lemma nodup_remove_file d n : NoDup (map f_name d) -> NoDup (map f_name (remove_file d n)).
Proof.
  induction d as [|f r IH]; cbn; auto. intros Hn. inversion Hn; subst. destruct (name_eqb (f_name f) n); auto.
  cbn. constructor; auto. intros H. apply names_remove_incl in H. auto.
Qed.

Lemma find_fold_remove (gone : list stat) : forall d n, NoDup (map f_name d) ->
  find_file (fold_left (fun d s => remove_file d (st_name s)) gone d) n =
  if existsb (fun s => name_eqb (st_name s) n) gone then None else find_file d n.
Proof.
  induction gone as [|g gone IH]; intros d n Hn; cbn; auto.
  rewrite IH by (apply nodup_remove_file; auto).
  destruct (name_eqb (st_name g) n) eqn:E; cbn.
  - apply name_eqb_eq in E. subst n. rewrite find_remove_same by auto. destruct (existsb _ gone); reflexivity.
  - rewrite find_remove_other; auto. intros ->. rewrite name_eqb_refl in E. discriminate.
Qed.

Theorem purge_spec w keep : wfw w ->
  (forall s, In s (w_closed w) -> st_max s < keep -> find_file (w_dir (purge w keep)) (st_name s) = None) /\
  (forall n, In n (handle_names w) ->
     (forall s, In s (w_closed w) -> st_name s = n -> keep <= st_max s) ->
     recs_of (w_dir (purge w keep)) n = recs_of (w_dir w) n) /\
  w_active (purge w keep) = w_active w /\
  w_closed (purge w keep) = filter (fun s => negb (st_max s <? keep)) (w_closed w).
Proof.
  intros (A & B & C & D). unfold purge. cbn [w_dir w_active w_closed]. split; [|split; [|split; reflexivity]].
  - intros s Hs Hlt. rewrite find_fold_remove by auto. destruct (existsb _ _) eqn:E; auto.
    apply not_true_iff_false in E. exfalso. apply E, existsb_exists. exists s. split; [|apply name_eqb_refl].
    apply filter_In. split; auto. apply Z.ltb_lt; auto.
  - intros n Hn Hkeep. unfold recs_of. rewrite find_fold_remove by auto.
    destruct (existsb _ _) eqn:E; auto. apply existsb_exists in E. destruct E as [s [Hs En]].
    apply filter_In in Hs. destruct Hs as [Hs Hl]. apply Z.ltb_lt in Hl. apply name_eqb_eq in En.
    specialize (Hkeep s Hs En). lia.
Qed.

Lemma in_all w r : In r (all w) ->
  exists s, (In s (w_closed w) \/ w_active w = Some s) /\ In r (recs_of (w_dir w) (st_name s)).
Proof.
  unfold all. intros H. apply in_app_or in H. destruct H as [H|H].
  - apply in_flat_map in H. destruct H as [s [Hs Hr]]. exists s. auto.
  - destruct (w_active w) as [a|] eqn:Ea; [|destruct H]. exists a. auto.
Qed.

Theorem purge_conservative w keep r : wfw w -> In r (all w) -> keep <= r_epoch r -> In r (all (purge w keep)).
Proof.
  intros Hw Hin Hk. destruct (purge_spec w keep Hw) as (_ & P2 & P3 & P4).
  destruct (in_all w r Hin) as [s [Hs Hr]]. unfold all. rewrite P3, P4. apply in_or_app.
  assert (Hmax : keep <= st_max s). { destruct Hw as (_ & _ & _ & D). rewrite (D s Hs). pose proof (max_epoch_ge _ _ Hr). lia. }
  destruct Hs as [Hs|Hs].
  - left. apply in_flat_map. exists s. split.
    + apply filter_In. split; auto. apply negb_true_iff. apply Z.ltb_ge. lia.
    + rewrite P2; auto using in_handle_closed.
      intros s' Hs' En. rewrite (wfw_closed_inj w s' s Hw Hs' Hs En). exact Hmax.
  - right. rewrite Hs. rewrite P2; auto using in_handle_active.
    intros s' Hs' En. destruct (wfw_closed_not_active w s s' Hw Hs Hs' En).
Qed.

Lemma sort_files_perm l : Permutation (sort_files l) l.
Proof. apply (isort_perm _ (fun f g => lex_ltb (f_name f) (f_name g))). Qed.

Theorem open_all d : NoDup (map f_name d) ->
  wfw (open_wal d) /\ w_active (open_wal d) = None /\
  all (open_wal d) = flat_map f_recs (sort_files d) /\ Permutation (sort_files d) d.
Proof.
  intros Hn. pose proof (sort_files_perm d) as P.
  assert (Hrecs : forall f, In f (sort_files d) -> recs_of d (f_name f) = f_recs f).
  { intros f Hf. unfold recs_of. rewrite find_file_In; auto. apply (Permutation_in _ P Hf). }
  split; [|split; [reflexivity|split; auto]].
  - unfold wfw, open_wal, handle_names. cbn [w_dir w_closed w_active]. rewrite app_nil_r, map_map. cbn [st_name].
    repeat split; auto.
    + apply (Permutation_NoDup (Permutation_map f_name (Permutation_sym P)) Hn).
    + intros n. apply Permutation_in, Permutation_map, P.
    + intros s [Hs|Hs]; [|discriminate]. apply in_map_iff in Hs. destruct Hs as [f [<- Hf]]. cbn [st_name st_max].
      rewrite Hrecs; auto.
  - unfold all, open_wal. cbn [w_dir w_closed w_active]. rewrite app_nil_r. clear P. revert Hrecs.
    induction (sort_files d) as [|f l IH]; intros Hl; cbn; auto. rewrite Hl by (left; auto). rewrite IH; auto.
    intros g Hg. apply Hl. right; auto.
Qed.

(* what a crash during the append of r may have done to one file *)
Definition grows (r : rec) (f f' : file) : Prop :=
  f_name f' = f_name f /\ (f_recs f' = f_recs f \/ f_recs f' = f_recs f ++ [r]).

Lemma grows_refl r f : grows r f f.
Proof. split; auto. Qed.

Lemma update_grows d n r g : (forall f, grows r f (g f)) ->
  Forall2 (grows r) d (update_file d n g).
Proof.
  intros Hg. induction d as [|f l IH]; cbn; [constructor|]. destruct (name_eqb (f_name f) n); constructor; auto.
  - apply Forall2_refl, grows_refl.
  - apply grows_refl.
Qed.

(* the crash specification at the level of the directory *)
Theorem crash_files w r fresh cut : wfw w ->
  exists d1, (d1 = w_dir w \/ d1 = w_dir w ++ [mkFile fresh [] false]) /\
     Forall2 (grows r) d1 (crash_append w r fresh cut) /\ NoDup (map f_name (crash_append w r fresh cut)).
Proof.
  intros Hw. unfold crash_append. destruct (maybe_rotate w fresh) as [e|w1] eqn:M.
  { exists (w_dir w). destruct Hw as (A & _). auto using Forall2_refl, grows_refl. }
  destruct (maybe_rotate_spec _ _ _ Hw M) as ((N & _) & _ & Hd & a & Ea). rewrite Ea. exists (w_dir w1). split; [exact Hd|].
  set (g := fun f : file => _).
  assert (Hg : forall f, grows r f (g f)).
  { intros f. subst g. cbv beta. destruct (r_size r <=? cut); [split; cbn; auto|]. destruct (cut <=? 0); split; cbn; auto. }
  split; [apply update_grows; exact Hg|]. rewrite names_update; [exact N|]. intros f. apply Hg.
Qed.

Theorem acked_survive w r fresh cut x : wfw w -> In x (all w) ->
  In x (all (open_wal (crash_append w r fresh cut))).
Proof.
  intros Hw Hx. destruct (crash_files w r fresh cut Hw) as (d1 & Hd1 & G & N).
  destruct (open_all _ N) as (_ & _ & -> & P).
  destruct (in_all w x Hx) as (s & _ & Hr). unfold recs_of in Hr.
  destruct (find_file (w_dir w) (st_name s)) as [f|] eqn:F; [|destruct Hr]. apply find_file_Some in F. destruct F as [F _].
  assert (Hf : In f d1) by (destruct Hd1 as [->| ->]; [|apply in_or_app]; auto).
  destruct (Forall2_in_l _ _ _ G f Hf) as (f' & Hf' & _ & H3).
  apply in_flat_map. exists f'. split; [exact (Permutation_in _ (Permutation_sym P) Hf')|].
  destruct H3 as [->| ->]; auto. apply in_or_app; auto.
Qed.

Theorem no_phantom w r fresh cut (log : list rec) :
  wfw w -> (forall f, In f (w_dir w) -> incl (f_recs f) log) ->
  incl (all (open_wal (crash_append w r fresh cut))) (log ++ [r]).
Proof.
  intros Hw Hlog x Hx. destruct (crash_files w r fresh cut Hw) as (d1 & Hd1 & G & N).
  destruct (open_all _ N) as (_ & _ & Ea & P). rewrite Ea in Hx.
  apply in_flat_map in Hx. destruct Hx as (f' & Hf' & Hx).
  destruct (Forall2_in_r _ _ _ G f' (Permutation_in _ P Hf')) as (f & Hf & _ & Hr).
  assert (Hsub : incl (f_recs f) log).
  { destruct Hd1 as [->| ->]; [apply Hlog; auto|]. apply in_snoc in Hf. destruct Hf as [Hf| ->]; [apply Hlog; auto|].
    intros y []. }
  apply in_snoc. destruct Hr as [Hr|Hr]; rewrite Hr in Hx; [|apply in_snoc in Hx; destruct Hx as [Hx|Hx]]; auto.
Qed.

(* the reopened log has no active file: the next append creates the file `fresh` and writes there, never into an
   old file, whatever its tail *)
Theorem restart_fresh_file d r fresh w' : NoDup (map f_name d) ->
  append (open_wal d) r fresh = inr w' -> find_file d fresh = None /\ recs_of (w_dir w') fresh = [r].
Proof.
  intros Hn. unfold append, maybe_rotate, open_wal. cbn [w_active]. unfold rotate, flush. cbn [w_active w_dir w_closed].
  destruct (find_file d fresh) eqn:F; [discriminate|]. cbn [w_active st_name st_max w_dir]. intros H; inversion H; subst w'. split; auto.
  unfold recs_of. cbn [w_dir]. rewrite find_update_same by reflexivity. rewrite find_app, F. cbn. rewrite name_eqb_refl. reflexivity.
Qed.
