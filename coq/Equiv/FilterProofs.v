From Coq Require Import ZArith List Bool Lia.
From F3 Require Import ListX Filter.
Import ListNotations.
Open Scope Z_scope.

Lemma fold_left_max_ext {A} (f : A -> Z) l1 l2 a : (forall x, In x l1 <-> In x l2) ->
  fold_left (fun a x => Z.max a (f x)) l1 a = fold_left (fun a x => Z.max a (f x)) l2 a.
Proof.
  intros H. destruct (fold_left_max_spec f l1 a) as [A1 [A2 A3]]. destruct (fold_left_max_spec f l2 a) as [B1 [B2 B3]].
  destruct A3 as [A3|[e [He Ee]]], B3 as [B3|[e' [He' Ee']]]; try lia.
  - specialize (A2 e' (proj2 (H e') He')). lia.
  - specialize (B2 e (proj1 (H e) He)). lia.
  - specialize (A2 e' (proj2 (H e') He')). specialize (B2 e (proj1 (H e) He)). lia.
Qed.

Lemma key_eqb_eq a b : key_eqb a b = true <-> a = b.
Proof.
  destruct a as [[a1 a2] a3], b as [[b1 b2] b3]. unfold key_eqb. rewrite !andb_true_iff, !Z.eqb_eq.
  split; [intros [[-> ->] ->]; auto | intros H; inversion H; auto].
Qed.
Lemma key_eqb_refl a : key_eqb a a = true. Proof. apply key_eqb_eq; auto. Qed.
Lemma key_eqb_neq a b : a <> b -> key_eqb a b = false.
Proof. intros H. destruct (key_eqb a b) eqn:E; auto. apply key_eqb_eq in E. contradiction. Qed.

Lemma act_get_set l s v s' : act_get (act_set l s v) s' = if s =? s' then Some v else act_get l s'.
Proof.
  induction l as [|[t w] r IH]; cbn.
  - destruct (s =? s'); auto.
  - destruct (t =? s) eqn:E; cbn.
    + apply Z.eqb_eq in E. subst t. destruct (s =? s'); auto.
    + rewrite IH. destruct (t =? s') eqn:E2; auto. destruct (s =? s') eqn:E3; auto.
      apply Z.eqb_eq in E2, E3. subst. rewrite Z.eqb_refl in E. discriminate.
Qed.

Section WithLocal.
Variable local : Z.

(* the filter only ever holds entries that originate from this node: kept by ProcessBroadcast (pb_FInv), and by
   ProcessReceive as long as no other node uses our identity (the HReceive clause of op_ok) *)
Definition FInv (f : filt) : Prop :=
  (forall k sg org, seen_get (f_seen f) k = Some (sg, org) -> org = local) /\
  (forall s v, act_get (f_active f) s = Some v -> equivocation v = false /\ origins v = [local]).

Definition sg (f : filt) (k : key) : option Z := option_map fst (seen_get (f_seen f) k).

Lemma FInv_empty c : FInv (mkF c [] []).
Proof. split; cbn; intros; discriminate. Qed.

Lemma add_sender_local v : equivocation v = false /\ origins v = [local] \/ v = mkSenders [] false ->
  add_sender v local false = mkSenders [local] false.
Proof.
  intros [[E O]|E]; [|subst v]; unfold add_sender; cbn.
  - rewrite O, E. cbn. rewrite Z.eqb_refl. reflexivity.
  - reflexivity.
Qed.

Lemma seen_cons_local seen k0 s0 : (forall k sg org, seen_get seen k = Some (sg, org) -> org = local) ->
  forall k sg org, seen_get ((k0, (s0, local)) :: seen) k = Some (sg, org) -> org = local.
Proof. intros I1 k s o. cbn [seen_get]. destruct (key_eqb k0 k); [intros [= _ <-]; reflexivity|apply I1]. Qed.

Lemma FInv_served f seen' s : FInv f -> (forall k sg org, seen_get seen' k = Some (sg, org) -> org = local) ->
  FInv (mkF (f_cur f) seen' (act_set (f_active f) s (mkSenders [local] false))).
Proof.
  intros [_ I2] I1. split; cbn [f_seen f_active]; [exact I1|]. intros s' v. rewrite act_get_set.
  destruct (s =? s'); [intros [= <-]; auto|apply I2].
Qed.

(* outcome of ProcessBroadcast, as a function of the abstract view (current instance, slot -> signature) *)
Lemma pb_spec f m : FInv f ->
  let '(f', ok) := process_broadcast local f m in
  FInv f' /\
  ( (m_inst m < f_cur f /\ ok = false /\ f' = f) \/
    (f_cur f < m_inst m /\ ok = true /\ f_cur f' = m_inst m /\
       forall k, sg f' k = if key_eqb (key_of m) k then Some (m_sig m) else None) \/
    (m_inst m = f_cur f /\ sg f (key_of m) = None /\ ok = true /\ f_cur f' = f_cur f /\
       forall k, sg f' k = if key_eqb (key_of m) k then Some (m_sig m) else sg f k) \/
    (m_inst m = f_cur f /\ sg f (key_of m) = Some (m_sig m) /\ ok = true /\ f_cur f' = f_cur f /\ forall k, sg f' k = sg f k) \/
    (m_inst m = f_cur f /\ (exists s, sg f (key_of m) = Some s /\ s <> m_sig m) /\ ok = false /\ f' = f) ).
Proof.
  intros F. pose proof F as [I1 I2]. unfold process_broadcast.
  destruct (Z.ltb_spec (m_inst m) (f_cur f)) as [E1|E1]. { split; [exact F|]. left. auto. }
  destruct (Z.ltb_spec (f_cur f) (m_inst m)) as [E2|E2].
  - cbn [f_seen f_active f_cur seen_get act_get]. rewrite add_sender_local by (right; reflexivity). cbn [equivocation]. split.
    + apply (FInv_served (mkF (m_inst m) [] []) _ _ (FInv_empty _)), seen_cons_local. discriminate.
    + right; left. repeat split; auto. intros k. unfold sg. cbn [seen_get f_seen]. destruct (key_eqb (key_of m) k); reflexivity.
  - assert (Ei : m_inst m = f_cur f) by lia.
    assert (Hact : add_sender (match act_get (f_active f) (m_sender m) with Some s => s | None => mkSenders [] false end) local false
                   = mkSenders [local] false).
    { apply add_sender_local. destruct (act_get (f_active f) (m_sender m)) eqn:A; [left; eapply I2; eauto | right; auto]. }
    unfold sg. destruct (seen_get (f_seen f) (key_of m)) as [[s o]|] eqn:S.
    + rewrite (I1 _ _ _ S), Z.eqb_refl, andb_true_r. destruct (Z.eqb_spec s (m_sig m)) as [->|Es]; cbn [negb].
      * rewrite Hact. cbn [equivocation]. split; [apply FInv_served; assumption|].
        right; right; right; left. repeat split; auto.
      * split; [exact F|]. do 4 right. repeat split; auto. exists s. auto.
    + rewrite Hact. cbn [equivocation]. split; [apply FInv_served, seen_cons_local; assumption|].
      right; right; left. cbn [f_seen f_cur seen_get]. repeat split; auto. intros k. destruct (key_eqb (key_of m) k); reflexivity.
Qed.

Lemma pb_FInv f m : FInv f -> FInv (fst (process_broadcast local f m)).
Proof. intros F. pose proof (pb_spec f m F) as S. destruct (process_broadcast local f m). apply S. Qed.

Lemma pb_accept f m f' : FInv f -> process_broadcast local f m = (f', true) ->
  f_cur f <= m_inst m /\ f_cur f' = m_inst m /\
  (f_cur f = m_inst m -> sg f (key_of m) = None \/ sg f (key_of m) = Some (m_sig m)) /\
  forall k, sg f' k = if key_eqb (key_of m) k then Some (m_sig m)
                     else if f_cur f <? m_inst m then None else sg f k.
Proof.
  intros F P. pose proof (pb_spec f m F) as S. rewrite P in S. destruct S as [_ S].
  destruct S as [(_ & B & _)|[(A & _ & B & D)|[(A & N & _ & B & D)|[(A & N & _ & B & D)|(_ & _ & B & _)]]]]; try discriminate.
  all: repeat split; try lia; auto; intros k; rewrite D; destruct (Z.ltb_spec (f_cur f) (m_inst m)); try lia; auto.
  (* a slot already holding this signature: the table does not change *)
  destruct (key_eqb (key_of m) k) eqn:E; auto. apply key_eqb_eq in E. subst k. exact N.
Qed.

Lemma pb_reject f m f' : FInv f -> process_broadcast local f m = (f', false) ->
  f' = f /\ (m_inst m < f_cur f \/ m_inst m = f_cur f /\ exists s, sg f (key_of m) = Some s /\ s <> m_sig m).
Proof.
  intros F P. pose proof (pb_spec f m F) as S. rewrite P in S. destruct S as [_ S].
  destruct S as [(A & _ & E)|[(_ & B & _)|[(_ & _ & B & _)|[(_ & _ & B & _)|(A & N & _ & E)]]]]; try discriminate; auto.
Qed.

Lemma pb_cur f m : FInv f -> f_cur (fst (process_broadcast local f m)) = Z.max (f_cur f) (m_inst m).
Proof.
  intros F. destruct (process_broadcast local f m) as [f' [|]] eqn:P; cbn [fst].
  - destruct (pb_accept _ _ _ F P) as (Hle & Hc & _). lia.
  - destruct (pb_reject _ _ _ F P) as (-> & [H|[H _]]); lia.
Qed.

Lemma pr_foreign f peer m : act_get (f_active f) (m_sender m) = None -> process_receive f peer m = f.
Proof. intros H. unfold process_receive. destruct (negb (m_inst m =? f_cur f)); auto. rewrite H. reflexivity. Qed.

Definition slot_conflict (a b : msg) : Prop :=
  m_inst a = m_inst b /\ key_of a = key_of b /\ m_sig a <> m_sig b.
Definition conflict_free (l : list msg) : Prop := forall a b, In a l -> In b l -> ~ slot_conflict a b.

(* coherence of a filter with a log, relative to a purge point K: log entries below K may have vanished *)
Definition coherent (K : Z) (f : filt) (l : list msg) : Prop :=
  FInv f /\
  (forall e, In e l -> K <= m_inst e -> m_inst e <= f_cur f) /\
  (forall e, In e l -> K <= m_inst e -> m_inst e = f_cur f -> sg f (key_of e) = Some (m_sig e)) /\
  (K <= f_cur f -> forall k s, sg f k = Some s -> exists e, In e l /\ m_inst e = f_cur f /\ key_of e = k /\ m_sig e = s).

Lemma coherent_empty K : coherent K filt_empty [].
Proof. split; [apply FInv_empty|]. repeat split; cbn; try tauto. intros _ k s H. discriminate. Qed.

Lemma coherent_mono K K' f l l' : K <= K' -> incl l l' -> (forall e, In e l' -> K' <= m_inst e -> In e l) ->
  coherent K f l -> coherent K' f l'.
Proof.
  intros HK Hi Hk (F & C1 & C2 & C3). split; auto. repeat split.
  - intros e He Hke. apply C1; auto. lia.
  - intros e He Hke. apply C2; auto. lia.
  - intros Hc k s Hs. destruct (C3 ltac:(lia) k s Hs) as (e & He & Hr). exists e. auto.
Qed.

(* at or above the purge point the slot table is a function of the log *)
Lemma coherent_sg_iff K f l k s : coherent K f l -> K <= f_cur f ->
  (sg f k = Some s <-> exists e, In e l /\ m_inst e = f_cur f /\ key_of e = k /\ m_sig e = s).
Proof.
  intros (_ & _ & C2 & C3) Hc. split; [apply C3; exact Hc|]. intros (e & He & Ei & <- & <-). apply C2; auto. lia.
Qed.

Lemma coherent_step K f l x f' ok : coherent K f l -> conflict_free (l ++ [x]) -> K <= m_inst x ->
  process_broadcast local f x = (f', ok) -> coherent K f' (l ++ [x]).
Proof.
  intros (F & C1 & C2 & C3) CF Hx P. split.
  { replace f' with (fst (process_broadcast local f x)) by (rewrite P; reflexivity). apply pb_FInv, F. }
  destruct ok.
  - destruct (pb_accept _ _ _ F P) as (Hle & Hc & Hk & D). rewrite Hc. repeat split.
    + intros e [He| ->]%in_snoc Hke; [specialize (C1 e He Hke)|]; lia.
    + intros e He Hke Ee. rewrite D. destruct (key_eqb (key_of x) (key_of e)) eqn:Ek.
      * apply in_snoc in He. destruct He as [He| ->]; [|reflexivity]. apply key_eqb_eq in Ek.
        pose proof (C1 e He Hke). pose proof (C2 e He Hke ltac:(lia)) as Q. rewrite <- Ek in Q. destruct (Hk ltac:(lia)); congruence.
      * apply in_snoc in He. destruct He as [He| ->]; [|rewrite key_eqb_refl in Ek; discriminate].
        pose proof (C1 e He Hke). assert (f_cur f <? m_inst x = false) as -> by lia. apply C2; auto; lia.
    + intros Hc' k s. rewrite D. destruct (key_eqb (key_of x) k) eqn:Ek.
      * apply key_eqb_eq in Ek. intros [= <-]. exists x. rewrite in_snoc. auto.
      * destruct (Z.ltb_spec (f_cur f) (m_inst x)); [discriminate|]. intros Hs. assert (Ec : f_cur f = m_inst x) by lia.
        destruct (C3 ltac:(lia) k s Hs) as (e & He & Hr). exists e. rewrite in_snoc, <- Ec. auto.
  - destruct (pb_reject _ _ _ F P) as (-> & [Hold|(Heq & s & N & Ns)]).
    + repeat split.
      * intros e [He| ->]%in_snoc Hke; [auto|lia].
      * intros e [He| ->]%in_snoc Hke Ee; [auto|lia].
      * intros Hc k s Hs. destruct (C3 Hc k s Hs) as (e & He & Hr). exists e. rewrite in_snoc. auto.
    + (* a conflicting signature for a known slot: impossible for a consistent log *)
      exfalso. destruct (C3 ltac:(lia) _ _ N) as (e & He & E1 & E2 & E3).
      apply (CF e x); [apply in_snoc; auto..|]. split; [lia|]. split; [auto|congruence].
Qed.

Lemma accept_conflict_free K f l m f' : coherent K f l -> conflict_free l -> K <= m_inst m ->
  process_broadcast local f m = (f', true) -> conflict_free (l ++ [m]).
Proof.
  intros (F & C1 & C2 & _) CF Hk P. destruct (pb_accept _ _ _ F P) as (Hle & _ & Hsg & _).
  assert (G : forall e, In e l -> m_inst e = m_inst m -> key_of e = key_of m -> m_sig e = m_sig m).
  { intros e He Ei Ek. pose proof (C1 e He ltac:(lia)). pose proof (C2 e He ltac:(lia) ltac:(lia)) as Q.
    rewrite Ek in Q. destruct (Hsg ltac:(lia)); congruence. }
  intros a b [Ha| ->]%in_snoc [Hb| ->]%in_snoc (Ei & Ek & Es).
  - apply (CF a b); unfold slot_conflict; auto.
  - apply Es, G; auto.
  - apply Es. symmetry. apply G; auto.
  - apply Es. reflexivity.
Qed.

Lemma conflict_free_app_l l x : conflict_free (l ++ [x]) -> conflict_free l.
Proof. intros H a b Ha Hb. apply H; apply in_or_app; auto. Qed.

Lemma conflict_free_incl l l' : incl l l' -> conflict_free l' -> conflict_free l.
Proof. intros Hi H a b Ha Hb. apply H; auto. Qed.

Lemma replay_snoc l x : replay local (l ++ [x]) = fst (process_broadcast local (replay local l) x).
Proof. unfold replay. rewrite fold_left_app. reflexivity. Qed.

Theorem replay_coherent l : conflict_free l -> Forall (fun m => 0 <= m_inst m) l -> coherent 0 (replay local l) l.
Proof.
  induction l as [|x l IH] using rev_ind; intros CF Hp; [apply coherent_empty|].
  apply Forall_app in Hp. destruct Hp as [Hp Hx]. rewrite replay_snoc.
  eapply coherent_step; [exact (IH (conflict_free_app_l _ _ CF) Hp)|exact CF| |apply surjective_pairing].
  inversion Hx; assumption.
Qed.

Lemma replay_FInv l : FInv (replay local l).
Proof. induction l using rev_ind; [apply FInv_empty|]. rewrite replay_snoc. apply pb_FInv. assumption. Qed.

Definition maxinst (l : list msg) : Z := fold_left (fun a m => Z.max a (m_inst m)) l 0.

Lemma replay_cur l : f_cur (replay local l) = maxinst l.
Proof.
  induction l as [|x l IH] using rev_ind; [reflexivity|]. rewrite replay_snoc, pb_cur, IH by apply replay_FInv.
  unfold maxinst. rewrite fold_left_app. reflexivity.
Qed.

(* the re-armed filter depends only on WHICH messages are logged, not on their order (so mis-ordered
   file names are harmless) *)
Theorem replay_perm_invariant l1 l2 : conflict_free l1 -> Forall (fun m => 0 <= m_inst m) l1 ->
  (forall m, In m l1 <-> In m l2) -> Forall (fun m => 0 <= m_inst m) l2 ->
  f_cur (replay local l1) = f_cur (replay local l2) /\ forall k, sg (replay local l1) k = sg (replay local l2) k.
Proof.
  intros CF1 P1 Hiff P2.
  assert (CF2 : conflict_free l2). { intros a b Ha Hb. apply CF1; apply Hiff; auto. }
  assert (Ec : f_cur (replay local l1) = f_cur (replay local l2)).
  { rewrite !replay_cur. apply fold_left_max_ext, Hiff. }
  assert (Hc : 0 <= f_cur (replay local l2)). { rewrite replay_cur. apply (fold_left_max_spec m_inst l2 0). }
  split; [exact Ec|]. intros k. apply option_ext. intros s.
  rewrite (coherent_sg_iff 0 _ l1), (coherent_sg_iff 0 _ l2), Ec by (auto using replay_coherent; lia).
  split; intros (e & He & R); exists e; (split; [apply Hiff, He|exact R]).
Qed.

Definition nondecreasing (l : list msg) : Prop :=
  forall i j a b, (i <= j)%nat -> nth_error l i = Some a -> nth_error l j = Some b -> m_inst a <= m_inst b.

(* ops allowed by the property's assumptions: our own messages (non-negative instance), never a request for an
   instance below a purge point (the node only purges instances it has left behind: host.go purges cert-5),
   received messages carry a foreign sender *)
Definition op_ok (ours : Z -> bool) (h : host) (o : hop) : Prop :=
  match o with
  | HBroadcast m | HCrashAfterFilter m | HCrashAfterWal m | HRebroadcast m => ours (m_sender m) = true /\ h_keep h <= m_inst m /\ 0 <= m_inst m
  | HReceive _ m => ours (m_sender m) = false
  | HPurge k _ => 0 <= k
  | HRestart => True
  end.

(* hi_bound: a filter re-armed from a purged WAL can lie below messages on the wire, but only below the purge point.
   hi_pos: replay starts from filt_empty, at instance 0, and would ignore a negative instance. *)
Record HInv (ours : Z -> bool) (h : host) : Prop := {
  hi_coh : coherent (h_keep h) (h_f h) (h_ever h);
  hi_sender : forall e, In e (h_ever h) -> ours (m_sender e) = true;
  hi_pos : Forall (fun m => 0 <= m_inst m) (h_ever h);
  hi_ours : (forall s v, act_get (f_active (h_f h)) s = Some v -> ours s = true);
  hi_walever : incl (h_wal h) (h_ever h);
  hi_kept : forall e, In e (h_ever h) -> h_keep h <= m_inst e -> In e (h_wal h);
  hi_cf : conflict_free (h_ever h);
  hi_wire : incl (h_wire h) (h_ever h);
  hi_mono : nondecreasing (h_wire h);
  hi_bound : forall w, In w (h_wire h) -> m_inst w <= Z.max (f_cur (h_f h)) (h_keep h - 1);
  hi_keep : 0 <= h_keep h;
}.

Lemma msg_eqb_eq a b : msg_eqb a b = true -> a = b.
Proof.
  unfold msg_eqb. rewrite !andb_true_iff, !Z.eqb_eq, key_eqb_eq. intros [[A B] C].
  destruct a, b; cbn in *. unfold key_of in B; cbn in B. inversion B; subst. reflexivity.
Qed.

Lemma pb_active f m s v : act_get (f_active (fst (process_broadcast local f m))) s = Some v ->
  s = m_sender m \/ exists v', act_get (f_active f) s = Some v'.
Proof.
  unfold process_broadcast. destruct (m_inst m <? f_cur f); cbn [fst]; [eauto|].
  destruct (f_cur f <? m_inst m); cbn [f_seen f_active f_cur seen_get act_get].
  - cbn [fst f_active]. rewrite act_get_set. destruct (m_sender m =? s) eqn:E; [apply Z.eqb_eq in E; auto|discriminate].
  - destruct (seen_get (f_seen f) (key_of m)) as [[s0 org]|].
    + destruct (negb (s0 =? m_sig m) && (org =? local)); cbn [fst f_active]; [eauto|].
      rewrite act_get_set. destruct (m_sender m =? s) eqn:E; [apply Z.eqb_eq in E; auto|eauto].
    + cbn [fst f_active]. rewrite act_get_set. destruct (m_sender m =? s) eqn:E; [apply Z.eqb_eq in E; auto|eauto].
Qed.

Lemma purge_wal_incl k l : forall d, incl (purge_wal k l d) l.
Proof.
  induction l as [|m r IH]; intros d x; cbn; [tauto|]. destruct (match d with [] => _ | _ => _ end) as [b ds].
  specialize (IH ds x). destruct (b && (m_inst m <? k)); cbn; tauto.
Qed.
Lemma purge_wal_keeps k l : forall d e, In e l -> k <= m_inst e -> In e (purge_wal k l d).
Proof.
  induction l as [|m r IH]; intros d e; cbn; [tauto|]. destruct (match d with [] => _ | _ => _ end) as [b ds].
  specialize (IH ds e). intros He Hk. destruct (b && (m_inst m <? k)) eqn:T; cbn; [|tauto].
  destruct He as [->|He]; [|auto]. apply andb_true_iff in T. destruct T as [_ T]. apply Z.ltb_lt in T. lia.
Qed.

Lemma nondecreasing_snoc l m : nondecreasing l -> (forall w, In w l -> m_inst w <= m_inst m) -> nondecreasing (l ++ [m]).
Proof.
  intros Hn Hb i j a b Hij Ha Hb'.
  destruct (Nat.lt_ge_cases j (length l)) as [Hj|Hj].
  - rewrite nth_error_app1 in Ha by lia. rewrite nth_error_app1 in Hb' by lia. exact (Hn i j a b Hij Ha Hb').
  - rewrite nth_error_app2 in Hb' by lia. destruct (j - length l)%nat as [|n] eqn:En; cbn in Hb'; [|destruct n; discriminate].
    inversion Hb'; subst b.
    destruct (Nat.lt_ge_cases i (length l)) as [Hi|Hi].
    + rewrite nth_error_app1 in Ha by lia. apply Hb. eapply nth_error_In; eauto.
    + rewrite nth_error_app2 in Ha by lia. destruct (i - length l)%nat as [|n'] eqn:En'; cbn in Ha; [|destruct n'; discriminate].
      inversion Ha; subst. lia.
Qed.

Variable ours : Z -> bool.

Lemma pb_ours f m f' ok : process_broadcast local f m = (f', ok) -> ours (m_sender m) = true ->
  (forall s v, act_get (f_active f) s = Some v -> ours s = true) ->
  forall s v, act_get (f_active f') s = Some v -> ours s = true.
Proof.
  intros P Ho H s v Hv. replace f' with (fst (process_broadcast local f m)) in Hv by (rewrite P; reflexivity).
  apply pb_active in Hv. destruct Hv as [->|[v' Hv]]; eauto.
Qed.

Lemma replay_ours l : (forall e, In e l -> ours (m_sender e) = true) ->
  forall s v, act_get (f_active (replay local l)) s = Some v -> ours s = true.
Proof.
  induction l as [|x l IH] using rev_ind; intros H; [discriminate|]. rewrite replay_snoc.
  apply (pb_ours (replay local l) x _ _ (surjective_pairing _)).
  - apply H, in_snoc. auto.
  - apply IH. intros e He. apply H, in_snoc. auto.
Qed.

Definition LogInv (wal ever : list msg) (keep : Z) : Prop :=
  incl wal ever /\ (forall e, In e ever -> keep <= m_inst e -> In e wal) /\ conflict_free ever /\
  Forall (fun m => 0 <= m_inst m) ever /\ (forall e, In e ever -> ours (m_sender e) = true) /\ 0 <= keep.

Lemma HInv_log h : HInv ours h -> LogInv (h_wal h) (h_ever h) (h_keep h).
Proof. intros I. repeat split; apply I. Qed.

Lemma HInv_intro f wal wire ever keep : LogInv wal ever keep -> coherent keep f ever ->
  (forall s v, act_get (f_active f) s = Some v -> ours s = true) ->
  incl wire ever -> nondecreasing wire -> (forall w, In w wire -> m_inst w <= Z.max (f_cur f) (keep - 1)) ->
  HInv ours (mkH f wal wire ever keep).
Proof. intros (Hi & Hk & CF & Hp & Hs & H0) C O W M B. constructor; assumption. Qed.

Lemma HInv_init : HInv ours host_init.
Proof.
  apply HInv_intro.
  - unfold LogInv, conflict_free, incl. cbn. repeat split; try tauto; [constructor|lia].
  - apply coherent_empty.
  - discriminate.
  - intros x [].
  - intros i j a b _ Ha; destruct i; discriminate.
  - intros w [].
Qed.

Lemma log_snoc wal ever keep m : LogInv wal ever keep -> conflict_free (ever ++ [m]) ->
  ours (m_sender m) = true -> 0 <= m_inst m -> LogInv (wal ++ [m]) (ever ++ [m]) keep.
Proof.
  intros (Hi & Hk & _ & Hp & Hs & H0) CF Ho Hm. repeat split; auto.
  - apply incl_app_app; [exact Hi|apply incl_refl].
  - intros e [He| ->]%in_snoc Hke; apply in_snoc; auto.
  - apply Forall_app. auto.
  - intros e [He| ->]%in_snoc; auto.
Qed.

Lemma restart_inv wal wire ever keep : LogInv wal ever keep -> incl wire ever -> nondecreasing wire ->
  HInv ours (mkH (replay local wal) wal wire ever keep).
Proof.
  intros L Hw Hm. pose proof L as (Hi & Hk & CF & Hp & Hs & H0).
  assert (Hpos : forall e, In e ever -> 0 <= m_inst e) by (apply Forall_forall, Hp).
  assert (RC : coherent 0 (replay local wal) wal).
  { apply replay_coherent; [exact (conflict_free_incl _ _ Hi CF)|]. apply Forall_forall. auto. }
  apply HInv_intro; auto.
  - exact (coherent_mono 0 keep _ wal ever H0 Hi Hk RC).
  - apply replay_ours. auto.
  - intros w Hwi. destruct (Z_le_gt_dec keep (m_inst w)) as [Hge|Hlt]; [|lia].
    destruct RC as (_ & C1 & _). specialize (C1 w (Hk w (Hw w Hwi) Hge) (Hpos w (Hw w Hwi))). lia.
Qed.

(* broadcast: ever' = h_ever h ++ [m]; rebroadcast: ever' = h_ever h, which holds m *)
Lemma accept_publish h m f' wal' ever' : HInv ours h -> ours (m_sender m) = true -> h_keep h <= m_inst m ->
  process_broadcast local (h_f h) m = (f', true) -> LogInv wal' ever' (h_keep h) ->
  incl (h_ever h ++ [m]) ever' -> incl ever' (h_ever h ++ [m]) ->
  HInv ours (mkH f' wal' (h_wire h ++ [m]) ever' (h_keep h)).
Proof.
  intros I Ho Hk P L' Hi1 Hi2. pose proof (hi_coh _ _ I) as C. destruct (pb_accept _ _ _ (proj1 C) P) as (Hle & Hc & _).
  assert (CF : conflict_free (h_ever h ++ [m])) by (apply (conflict_free_incl _ _ Hi1), L').
  assert (B : forall w, In w (h_wire h) -> m_inst w <= m_inst m) by (intros w Hw; pose proof (hi_bound _ _ I w Hw); lia).
  apply HInv_intro.
  - exact L'.
  - apply (coherent_mono (h_keep h) _ _ (h_ever h ++ [m])); [lia|exact Hi1|intros e He _; exact (Hi2 e He)|].
    apply (coherent_step _ _ _ _ _ _ C CF Hk P).
  - apply (pb_ours _ _ _ _ P Ho (hi_ours _ _ I)).
  - intros e He. apply Hi1. revert e He. apply incl_app_app; [apply I|apply incl_refl].
  - apply nondecreasing_snoc; [apply I|exact B].
  - rewrite Hc. intros w [Hw| ->]%in_snoc; [specialize (B w Hw)|]; lia.
Qed.

Theorem hstep_inv h o : HInv ours h -> op_ok ours h o -> HInv ours (hstep local h o).
Proof.
  intros I Hok. pose proof (HInv_log h I) as L. pose proof (hi_coh _ _ I) as C. pose proof C as (F & _).
  assert (R : HInv ours (mkH (replay local (h_wal h)) (h_wal h) (h_wire h) (h_ever h) (h_keep h))).
  { apply restart_inv; [exact L|apply I..]. }
  destruct o as [m|m|m|m| |k dropped|peer m]; cbn [hstep op_ok] in *.
  - destruct Hok as (Ho & Hk & Hp). destruct (process_broadcast local (h_f h) m) as [f' [|]] eqn:P.
    + apply accept_publish; auto using incl_refl. apply log_snoc; auto.
      apply (accept_conflict_free _ _ _ _ _ C (hi_cf _ _ I) Hk P).
    + destruct (pb_reject _ _ _ F P) as [-> _]. destruct h; exact I.
  - (* crash after the filter accepted, before the WAL append: nothing durable happened *)
    exact R.
  - (* crash after the WAL append, before publishing *)
    destruct Hok as (Ho & Hk & Hp). destruct (process_broadcast local (h_f h) m) as [f' [|]] eqn:P.
    + apply restart_inv; [|apply incl_appl, I|apply I].
      apply log_snoc; auto. apply (accept_conflict_free _ _ _ _ _ C (hi_cf _ _ I) Hk P).
    + exact R.
  - (* rebroadcast of a logged message: it is fed to the filter once more, and the log already holds it *)
    destruct Hok as (Ho & Hk & Hp).
    destruct (existsb (msg_eqb m) (h_wal h)) eqn:Ex; [|exact I].
    apply existsb_exists in Ex. destruct Ex as [e [He Ee]]. apply msg_eqb_eq in Ee. subst e.
    destruct (process_broadcast local (h_f h) m) as [f' [|]] eqn:P.
    + apply accept_publish; auto using incl_appl, incl_refl.
      apply incl_app; [apply incl_refl|]. intros e [<-|[]]. apply (hi_walever _ _ I), He.
    + destruct (pb_reject _ _ _ F P) as [-> _]. destruct h; exact I.
  - exact R.
  - apply HInv_intro; try apply I.
    + destruct L as (Hi & Hkp & CF & Hp & Hs & H0). repeat split; auto; try lia.
      * intros e He. apply Hi. eapply purge_wal_incl; eauto.
      * intros e He Hke. apply purge_wal_keeps; [|lia]. apply Hkp; auto. lia.
    + apply (coherent_mono (h_keep h) _ _ (h_ever h)); auto using incl_refl. lia.
    + intros w Hw. pose proof (hi_bound _ _ I w Hw). lia.
  - rewrite pr_foreign. { destruct h; exact I. }
    destruct (act_get (f_active (h_f h)) (m_sender m)) eqn:A; auto. pose proof (hi_ours _ _ I _ _ A). congruence.
Qed.

Inductive reachable : host -> Prop :=
| reach_init : reachable host_init
| reach_step h o : reachable h -> op_ok ours h o -> reachable (hstep local h o).

Theorem reachable_inv h : reachable h -> HInv ours h.
Proof. induction 1; [apply HInv_init | apply hstep_inv; auto]. Qed.

(* never two differently signed messages for one (instance, sender, round, step) on the wire *)
Theorem wire_no_equivocation h : reachable h -> conflict_free (h_wire h).
Proof. intros R. pose proof (reachable_inv h R) as I. eapply conflict_free_incl; [apply (hi_wire _ _ I) | apply (hi_cf _ _ I)]. Qed.

(* never a message for an instance older than one already broadcast for *)
Theorem wire_no_older_instance h : reachable h -> nondecreasing (h_wire h).
Proof. intros R. apply (hi_mono _ _ (reachable_inv h R)). Qed.

End WithLocal.
