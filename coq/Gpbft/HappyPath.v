(* The happy path, step by step, on the instance model (C02 second sentence / C06): whenever the votes a participant has
   received contain a strong quorum for the value it is working on, the participant takes the next protocol step FOR THAT
   VALUE at once -- no timeout is needed:
     QUALITY quorum for its input      => PREPARE input
     PREPARE quorum for its proposal   => COMMIT proposal, justified by that quorum
     COMMIT quorum for a value         => DECIDE that value, justified by that quorum
     DECIDE quorum for a value         => the decision is reported with that value and a strong quorum of signers.
   These hold for any instance in any round; the round-0 happy path over the network (every vote of every honest participant
   reaches every participant before its timeout) is composed in HappyInst.v .. HappyTimed.v. *)
From Coq Require Import ZArith List Lia.
From F3 Require Import QuorumProofs Instance InstanceVotes InstanceDecide InstanceQuorum.
Import ListNotations.
Open Scope Z_scope.

Lemma longest_prefix_full q v : v <> [] -> q_has_sq q v = true -> q_longest_prefix q v = v.
Proof.
  intros Hne Hsq. destruct (q_longest_prefix_spec q v) as (Hp & _ & Hmax & Hl). cbv zeta in *. specialize (Hl Hne).
  set (p := q_longest_prefix q v) in *. destruct Hp as (t & Ht).
  assert (Hlen : length v = (length p + length t)%nat) by (rewrite Ht at 1; apply app_length).
  destruct t as [|x t]; [rewrite app_nil_r in Ht; symmetry; exact Ht|exfalso].
  cbn in Hlen. assert (Hpv : InstanceVotes.is_prefix v v) by (exists []; symmetry; apply app_nil_r).
  rewrite (Hmax v Hpv ltac:(lia) ltac:(lia)) in Hsq. discriminate Hsq.
Qed.

Section Cfg.
Variable c : config.
Hypothesis Htotal : 0 < c_total c < two62.
Hypothesis Hpow : forall s, 0 <= power_of c s.
Hypothesis Hsum : forall l, NoDup l -> sum_power c l <= c_total c.

Theorem happy_quality i : i_input i <> [] -> i_proposal i = i_input i -> q_has_sq (i_quality i) (i_input i) = true ->
  exists rest, i_out (try_quality c i) = OBroadcast (i_round i) PREPARE (i_input i) None false :: rest /\
               i_proposal (try_quality c i) = i_input i /\ i_phase (try_quality c i) = PREPARE.
Proof.
  intros Hne Hp Hsq. pose proof (try_quality_spec c i) as S. cbv zeta in S. rewrite Hp, Hsq in S. cbn [orb] in S.
  rewrite (longest_prefix_full _ _ Hne Hsq) in S. destruct S as (A & B & _ & D & _).
  eexists. split; [exact A|split; assumption].
Qed.

Theorem happy_prepare i : QS c (r_prep (get_round i (i_round i))) -> i_proposal i <> [] ->
  q_has_sq (r_prep (get_round i (i_round i))) (i_proposal i) = true ->
  exists sg rest, i_out (try_prepare c i) =
                    OBroadcast (i_round i) COMMIT (i_proposal i) (Some (build_just (i_round i) PREPARE (i_proposal i) sg)) false :: rest /\
                  i_phase (try_prepare c i) = COMMIT.
Proof.
  intros HQ Hne Hsq. unfold try_prepare. cbv zeta. rewrite Hsq. cbn [orb]. cbv iota.
  unfold begin_commit. cbv zeta. cbn [set_pv i_value i_round set_progress alarm_after reset_rebroadcast emit set_timers].
  destruct (i_proposal i) as [|x v] eqn:Ep; [congruence|].
  change (get_round (reset_rebroadcast (alarm_after c (set_progress (set_pv i (x :: v) (x :: v)) (i_round i) COMMIT) false)) (i_round i))
    with (get_round i (i_round i)).
  unfold q_has_sq in Hsq. destruct (sup_find (q_support (r_prep (get_round i (i_round i)))) (x :: v)) as [s|] eqn:Ef; [|discriminate Hsq].
  assert (Hy : exists sg, q_find_sq_for c (r_prep (get_round i (i_round i))) (x :: v) = FsqSome sg) by (eapply find_sq_for_some; eassumption).
  destruct Hy as (sg & ->).
  exists sg. eexists. split; reflexivity.
Qed.

Lemma find_sq_value_for q v : QS c q -> q_find_sq_value q = FsvSome v -> exists sg, q_find_sq_for c q v = FsqSome sg.
Proof. intros HQ Hv. destruct (find_sq_value_support _ _ _ HQ Hv) as (s & Ef & Es). eapply find_sq_for_some; eassumption. Qed.

Theorem happy_commit i round sway x v : QS c (r_comm (get_round i round)) ->
  q_find_sq_value (r_comm (get_round i round)) = FsvSome (x :: v) ->
  exists sg rest, i_out (try_commit c i round sway) =
                    OBroadcast 0 DECIDE (x :: v) (Some (build_just round COMMIT (x :: v) sg)) false :: rest /\
                  i_phase (try_commit c i round sway) = DECIDE.
Proof.
  intros HQ Hv. unfold try_commit. rewrite Hv. destruct (find_sq_value_for _ _ HQ Hv) as (sg & Ey).
  unfold begin_decide. cbv zeta. cbn [set_pv i_value i_round set_progress reset_rebroadcast set_timers].
  change (get_round (reset_rebroadcast (set_progress (set_pv i (i_proposal i) (x :: v)) (i_round i) DECIDE)) round) with (get_round i round).
  rewrite Ey. exists sg. eexists. split; reflexivity.
Qed.

Theorem happy_decide i v : QS c (i_decision i) -> q_find_sq_value (i_decision i) = FsvSome v ->
  exists sg, i_term (try_decide c i) = Some (build_just 0 DECIDE v sg) /\ i_phase (try_decide c i) = TERMINATED.
Proof.
  intros HQ Hv. unfold try_decide. rewrite Hv. destruct (find_sq_value_for _ _ HQ Hv) as (sg & ->).
  exists sg. split; reflexivity.
Qed.

End Cfg.
