(* Layer N: what one call of each function of Instance.v does, no invariant involved: frames (quiet, still), normal forms
   of the candidate-set operations, and per branching function an outcome lemma (`_cases`) -- to prove Q of the result,
   prove it of each outcome under its guards.  A guard is listed once some user needed it: a missing one is unneeded so
   far, not false.  Elsewhere a model function is unfolded only by theorems that characterise that one function
   (and begin_prepare, which does not branch, by PI_begin_prepare). *)
From Coq Require Import ZArith List Bool Lia.
From F3 Require Import ListX Instance.
Import ListNotations.
Open Scope Z_scope.

Lemma phase_code_inj a b : phase_code a = phase_code b -> a = b.
Proof. destruct a, b; simpl; intros H; try reflexivity; discriminate H. Qed.
Lemma phase_eqb_true a b : phase_eqb a b = true <-> a = b.
Proof. unfold phase_eqb; rewrite Z.eqb_eq; split; [apply phase_code_inj|now intros ->]. Qed.
Lemma phase_eqb_false a b : phase_eqb a b = false <-> a <> b.
Proof. rewrite <- phase_eqb_true; destruct (phase_eqb a b); split; congruence. Qed.
Lemma phase_code_range p : 0 <= phase_code p <= 6. Proof. destruct p; cbn; lia. Qed.
Lemma phase_lt5 p : p <> DECIDE -> p <> TERMINATED -> phase_code p < 5.
Proof. destruct p; cbn; intros; try lia; congruence. Qed.

Lemma chain_eqb_eq a b : chain_eqb a b = true <-> a = b.
Proof. exact (eqb_listZ_eq a b). Qed.
Lemma chain_eqb_refl a : chain_eqb a a = true. Proof. apply chain_eqb_eq; reflexivity. Qed.

Lemma memZ_In x l : memZ x l = true <-> In x l.
Proof. apply existsb_Zeqb_In. Qed.

Lemma sup_find_In l k s : sup_find l k = Some s -> In s l /\ s_chain s = k.
Proof.
  induction l as [|x l IH]; cbn; [discriminate|]. destruct (chain_eqb (s_chain x) k) eqn:E.
  - intros H; injection H as <-. split; [left; reflexivity|apply chain_eqb_eq; exact E].
  - intros H. destruct (IH H) as [H1 H2]. split; [right; exact H1|exact H2].
Qed.
Lemma sup_set_In l s x : In x (sup_set l s) -> x = s \/ In x l.
Proof.
  induction l as [|y l IH]; cbn; [intros [<-|[]]; left; reflexivity|].
  destruct (chain_eqb (s_chain y) (s_chain s)); cbn; intros [<-|H]; auto.
  destruct (IH H); auto.
Qed.
Lemma sup_find_set_same l s : sup_find (sup_set l s) (s_chain s) = Some s.
Proof.
  induction l as [|x l IH]; cbn; [rewrite chain_eqb_refl; reflexivity|].
  destruct (chain_eqb (s_chain x) (s_chain s)) eqn:E; cbn; [rewrite chain_eqb_refl; reflexivity|rewrite E; exact IH].
Qed.
Lemma sup_find_set_other l s k : chain_eqb (s_chain s) k = false -> sup_find (sup_set l s) k = sup_find l k.
Proof.
  intros Hk. induction l as [|x l IH]; cbn; [rewrite Hk; reflexivity|].
  destruct (chain_eqb (s_chain x) (s_chain s)) eqn:E; cbn.
  - apply chain_eqb_eq in E. rewrite Hk, E, Hk. reflexivity.
  - destruct (chain_eqb (s_chain x) k); [reflexivity|exact IH].
Qed.
Lemma cv_find_In l v w : cv_find l v = Some w -> In w l /\ cv_chain w = v.
Proof.
  induction l as [|x l IH]; cbn; [discriminate|]. destruct (chain_eqb (cv_chain x) v) eqn:E.
  - intros H; injection H as <-. split; [left; reflexivity|apply chain_eqb_eq; exact E].
  - intros H. destruct (IH H). split; [right; assumption|assumption].
Qed.
Lemma cv_set_In l w y : In y (cv_set l w) -> y = w \/ In y l.
Proof.
  induction l as [|a l IH]; cbn; [intros [<-|[]]; left; reflexivity|].
  destruct (chain_eqb (cv_chain a) (cv_chain w)); cbn; intros [<-|H]; auto. destruct (IH H); auto.
Qed.
Lemma rget_rset_same l r s : rget (rset l r s) r = s.
Proof.
  induction l as [|[k x] l IH]; cbn; [rewrite Z.eqb_refl; reflexivity|].
  destruct (k =? r) eqn:E; cbn; [rewrite Z.eqb_refl; reflexivity|rewrite E; exact IH].
Qed.
Lemma rget_rset_other l r s r' : r' <> r -> rget (rset l r s) r' = rget l r'.
Proof.
  intros Hne. induction l as [|[k x] l IH]; cbn.
  - destruct (r =? r') eqn:E; [apply Z.eqb_eq in E; congruence|reflexivity].
  - destruct (k =? r) eqn:E; cbn.
    + apply Z.eqb_eq in E. subst k. destruct (r =? r') eqn:E2; [apply Z.eqb_eq in E2; congruence|reflexivity].
    + destruct (k =? r'); [reflexivity|exact IH].
Qed.
Lemma rget_rset_all (P : Z -> rstate -> Prop) l r s : P r s -> (forall r', P r' (rget l r')) -> forall r', P r' (rget (rset l r s) r').
Proof. intros Hs Hl r'. destruct (Z.eq_dec r' r) as [->|Hne]; [rewrite rget_rset_same; exact Hs|rewrite rget_rset_other by exact Hne; apply Hl]. Qed.

Lemma q_get_just_inv q ph k j : q_get_just q ph k = Some j ->
  exists e, In e (q_just q) /\ snd e = j /\ j_phase j = ph /\ match k with [] => j_value j = [] | _ => fst e = k end.
Proof.
  unfold q_get_just. destruct k as [|x k].
  - destruct (filter _ (q_just q)) as [|e l] eqn:Ef; [discriminate|]. intros H; injection H as <-.
    assert (Hin : In e (e :: l)) by (left; reflexivity). rewrite <- Ef in Hin. apply filter_In in Hin. destruct Hin as [Hin Hc].
    apply andb_prop in Hc. destruct Hc as [Hz Hp]. exists e. repeat split; [exact Hin|apply phase_eqb_true; exact Hp|].
    destruct (j_value (snd e)); [reflexivity|discriminate Hz].
  - destruct (filter _ (q_just q)) as [|e l] eqn:Ef; [discriminate|]. destruct (phase_eqb _ _) eqn:Hp; [|discriminate].
    intros H; injection H as <-.
    assert (Hin : In e (e :: l)) by (left; reflexivity). rewrite <- Ef in Hin. apply filter_In in Hin. destruct Hin as [Hin Hc].
    exists e. repeat split; [exact Hin|apply phase_eqb_true; exact Hp|apply chain_eqb_eq; exact Hc].
Qed.
Lemma c_get_just_inv s ph k j : c_get_just s ph k = Some j ->
  exists cv, In cv (cs_values s) /\ cv_just cv = j /\ j_phase j = ph /\ match k with [] => j_value j = [] | _ => cv_chain cv = k end.
Proof.
  unfold c_get_just. destruct k as [|x k].
  - destruct (filter _ (cs_values s)) as [|e l] eqn:Ef; [discriminate|]. intros H; injection H as <-.
    assert (Hin : In e (e :: l)) by (left; reflexivity). rewrite <- Ef in Hin. apply filter_In in Hin. destruct Hin as [Hin Hc].
    apply andb_prop in Hc. destruct Hc as [Hz Hp]. exists e. repeat split; [exact Hin|apply phase_eqb_true; exact Hp|].
    destruct (j_value (cv_just e)); [reflexivity|discriminate Hz].
  - destruct (cv_find (cs_values s) (x :: k)) as [v|] eqn:Ef; [|discriminate]. destruct (phase_eqb _ _) eqn:Hp; [|discriminate].
    intros H; injection H as <-. destruct (cv_find_In _ _ _ Ef) as [Hin Hc].
    exists v. repeat split; [exact Hin|apply phase_eqb_true; exact Hp|exact Hc].
Qed.

Lemma find_best_acc (f : cvalue -> bool) l : forall acc w,
  fold_left (fun best v => if better best v && f v then Some v else best) l acc = Some w ->
  acc = Some w \/ (In w l /\ f w = true).
Proof.
  induction l as [|x l IH]; intros acc w H; cbn in H; [left; exact H|].
  destruct (IH _ _ H) as [E|[Hin Hf]]; [|right; split; [right; exact Hin|exact Hf]].
  destruct (better acc x && f x) eqn:B; [|left; exact E].
  injection E as ->. right. split; [left; reflexivity|]. apply andb_prop in B. apply B.
Qed.
Lemma c_find_best_In s f w : c_find_best s f = Some w -> In w (cs_values s) /\ f w = true.
Proof. intros H. destruct (find_best_acc f _ _ _ H) as [E|E]; [discriminate E|exact E]. Qed.
Lemma find_best_some (f : cvalue -> bool) l : forall acc,
  (acc <> None \/ exists v, In v l /\ f v = true) ->
  fold_left (fun best v => if better best v && f v then Some v else best) l acc <> None.
Proof.
  induction l as [|x l IH]; intros acc H; cbn.
  - destruct H as [H|(v & [] & _)]; exact H.
  - apply IH. destruct H as [H|(v & [E|Hin] & Hf)].
    + left. destruct (better acc x && f x); [discriminate|exact H].
    + subst x. destruct acc as [b|]; [left; destruct (better (Some b) v && f v); discriminate|].
      left. cbn. rewrite Hf. discriminate.
    + right. exists v. auto.
Qed.

Lemma err_fail_some i e : i_err (fail i e) <> None.
Proof. cbn. destruct (i_err i); discriminate. Qed.
Lemma err_fail_keep i e x : i_err i = Some x -> i_err (fail i e) = Some x.
Proof. intros H. cbn. rewrite H. reflexivity. Qed.
Lemma err_none_b (i : inst) : (match i_err i with None => true | Some _ => false end) = true -> i_err i = None.
Proof. destruct (i_err i); [discriminate|reflexivity]. Qed.

Definition NE (S : ierr -> Prop) (i : inst) : Prop := forall e, i_err i = Some e -> ~ S e.
Lemma NE_none S i : i_err i = None -> NE S i. Proof. intros H e He. congruence. Qed.
Lemma NE_err S i i' : i_err i' = i_err i -> NE S i -> NE S i'. Proof. unfold NE. intros ->. auto. Qed.
Lemma NE_fail S i e : ~ S e -> NE S i -> NE S (fail i e).
Proof. intros Hn H x. cbn. destruct (i_err i) as [y|] eqn:E; intros Hx; injection Hx as <-; [apply H; exact E|exact Hn]. Qed.
(* P while no error is recorded; no error of class S ever *)
Definition Post (P : inst -> Prop) (S : ierr -> Prop) (i : inst) : Prop := (i_err i = None -> P i) /\ NE S i.
Lemma Post_none (P : inst -> Prop) S i : P i -> i_err i = None -> Post P S i.
Proof. intros H He. split; [intros _; exact H|apply NE_none; exact He]. Qed.
Lemma Post_fail (P : inst -> Prop) S i e : ~ S e -> i_err i = None -> Post P S (fail i e).
Proof. intros Hn He. split; [intros H; exfalso; exact (err_fail_some _ _ H)|apply NE_fail; [exact Hn|apply NE_none; exact He]]. Qed.

Lemma Post_all (P : inst -> Prop) i : Post P (fun _ => True) i -> i_err i = None /\ P i.
Proof. intros [A B]. unfold NE in B. destruct (i_err i) as [e|]; [destruct (B e eq_refl I)|auto]. Qed.
Lemma Post_and (P Q : inst -> Prop) S1 S2 i : Post P S1 i -> Post Q S2 i -> Post (fun x => P x /\ Q x) (fun e => S1 e \/ S2 e) i.
Proof. intros [A1 B1] [A2 B2]. split; [intros E; split; auto|]. intros e He [H|H]; [exact (B1 e He H)|exact (B2 e He H)]. Qed.
Lemma Post_weaken (P : inst -> Prop) (S S' : ierr -> Prop) i : (forall e, S' e -> S e) -> Post P S i -> Post P S' i.
Proof. intros HS [A B]. split; [exact A|]. intros e He H. exact (B e He (HS e H)). Qed.

Definition core (i : inst) :=
  (i_input i, i_proposal i, i_value i, i_cands i, i_quality i, i_rounds i, i_decision i, i_round i, i_phase i, i_term i, i_err i).
Lemma core_fields i i' : core i' = core i ->
  i_input i' = i_input i /\ i_proposal i' = i_proposal i /\ i_value i' = i_value i /\ i_cands i' = i_cands i /\
  i_quality i' = i_quality i /\ i_rounds i' = i_rounds i /\ i_decision i' = i_decision i /\ i_round i' = i_round i /\
  i_phase i' = i_phase i /\ i_term i' = i_term i /\ i_err i' = i_err i.
Proof. unfold core. intros E. injection E as E1 E2 E3 E4 E5 E6 E7 E8 E9 E10 E11. repeat split; assumption. Qed.

Definition not_bcast (o : out) : Prop := match o with OBroadcast _ _ _ _ _ => False | _ => True end.
(* up to clock, timers and outputs that are not broadcasts *)
Definition quiet (i i' : inst) : Prop := core i' = core i /\ exists l, i_out i' = l ++ i_out i /\ Forall not_bcast l.
Lemma quiet_same i i' : core i' = core i -> i_out i' = i_out i -> quiet i i'.
Proof. intros E O. split; [exact E|exists []; split; [exact O|constructor]]. Qed.
Lemma quiet_refl i : quiet i i. Proof. apply quiet_same; reflexivity. Qed.
Lemma quiet_trans a b d : quiet a b -> quiet b d -> quiet a d.
Proof.
  intros [E1 (l1 & O1 & F1)] [E2 (l2 & O2 & F2)]. split; [congruence|]. exists (l2 ++ l1).
  split; [rewrite O2, O1, app_assoc; reflexivity|apply Forall_app; split; assumption].
Qed.
Lemma quiet_emit i i1 o : quiet i i1 -> not_bcast o -> quiet i (emit i1 o).
Proof.
  intros H Ho. eapply quiet_trans; [exact H|]. split; [reflexivity|exists [o]; split; [reflexivity|repeat constructor; exact Ho]].
Qed.
Lemma quiet_timers i pt rt ra : quiet i (set_timers i pt rt ra). Proof. apply quiet_same; reflexivity. Qed.
Lemma quiet_now i t : quiet i (set_now i t). Proof. apply quiet_same; reflexivity. Qed.
Lemma quiet_core i i' : quiet i i' -> core i' = core i. Proof. intros [E _]. exact E. Qed.
Lemma err_quiet i i' : quiet i i' -> i_err i' = i_err i.
Proof. intros [E _]. apply (core_fields _ _ E). Qed.

(* what rebroadcasting does: quiet, phase timeout and clock kept as well *)
Definition still (i i' : inst) : Prop := quiet i i' /\ i_ptimeout i' = i_ptimeout i /\ i_now i' = i_now i.
Lemma still_refl i : still i i. Proof. split; [apply quiet_refl|split; reflexivity]. Qed.
Lemma still_trans a b d : still a b -> still b d -> still a d.
Proof. intros (Q1 & P1 & N1) (Q2 & P2 & N2). split; [eapply quiet_trans; eauto|split; congruence]. Qed.
Lemma still_emit i i1 o : still i i1 -> not_bcast o -> still i (emit i1 o).
Proof. intros (Q1 & P1 & N1) Ho. split; [apply quiet_emit; assumption|split; assumption]. Qed.
Lemma still_rtimers i rt ra : still i (set_timers i (i_ptimeout i) rt ra).
Proof. split; [apply quiet_timers|split; reflexivity]. Qed.

Lemma still_do_rebroadcast i : still i (do_rebroadcast i).
Proof.
  unfold do_rebroadcast. destruct (i_phase i); try apply still_refl.
  1-4: destruct (0 <? _); repeat (apply still_emit; [|exact I]); apply still_refl.
  apply still_emit; [apply still_refl|exact I].
Qed.

Section Cfg.
Variable c : config.

Lemma quiet_alarm_after i q : quiet i (alarm_after c i q).
Proof. unfold alarm_after. apply quiet_emit; [apply quiet_timers|exact I]. Qed.

Lemma still_try_rebroadcast i : still i (try_rebroadcast c i).
Proof.
  unfold try_rebroadcast. destruct (i_rtimeout i) as [rt|].
  - destruct (rt <=? i_now i); [|apply still_refl].
    assert (H : forall rt' a, still i (set_timers (do_rebroadcast i) (i_ptimeout (do_rebroadcast i)) rt' a)).
    { intros rt' a. eapply still_trans; [apply still_do_rebroadcast|apply still_rtimers]. }
    destruct (phase_timeout_elapsed _); [|destruct (_ <? _)]; (apply still_emit; [apply H|exact I]).
  - destruct (i_rattempts i =? 0); [|apply still_refl].
    destruct (phase_timeout_elapsed _); [|destruct (_ <? _)]; try (apply still_emit; [apply still_rtimers|exact I]).
    unfold reset_rebroadcast. eapply still_trans; apply still_rtimers.
Qed.
Lemma quiet_try_rebroadcast i : quiet i (try_rebroadcast c i). Proof. apply still_try_rebroadcast. Qed.

Lemma set_cands_eta i : set_cands i (i_cands i) = i. Proof. destruct i; reflexivity. Qed.
Lemma is_candidate_In i v : is_candidate i v = true <-> In v (i_cands i).
Proof.
  unfold is_candidate. rewrite existsb_exists. split.
  - intros (x & Hx & E). apply chain_eqb_eq in E. subst. exact Hx.
  - intros H. exists v. split; [exact H|apply chain_eqb_refl].
Qed.
Lemma add_candidate_nf i v : exists l, incl (i_cands i) l /\ In v l /\ fst (add_candidate i v) = set_cands i l /\
  (forall x, In x l -> In x (i_cands i) \/ x = v).
Proof.
  unfold add_candidate. destruct (is_candidate i v) eqn:E; cbn [fst].
  - exists (i_cands i). split; [apply incl_refl|split; [apply is_candidate_In; exact E|split; [symmetry; apply set_cands_eta|auto]]].
  - exists (i_cands i ++ [v]). split; [apply incl_appl, incl_refl|split; [apply in_or_app; right; left; reflexivity|split; [reflexivity|]]].
    intros x Hx. apply in_app_or in Hx. destruct Hx as [Hx|[<-|[]]]; auto.
Qed.
Lemma acp_nf i v : exists l, incl (i_cands i) l /\ (forall p, In p (all_prefixes v) -> In p l) /\ add_candidate_prefixes i v = set_cands i l /\
  (forall x, In x l -> In x (i_cands i) \/ In x (all_prefixes v)).
Proof.
  unfold add_candidate_prefixes.
  assert (G : forall ps i0, exists l, incl (i_cands i0) l /\ (forall p, In p ps -> In p l) /\
                                  fold_left (fun i1 p => fst (add_candidate i1 p)) ps i0 = set_cands i0 l /\
                                  (forall x, In x l -> In x (i_cands i0) \/ In x ps)).
  { induction ps as [|p ps IH]; intros i0; cbn [fold_left].
    - exists (i_cands i0). split; [apply incl_refl|split; [intros p []|split; [symmetry; apply set_cands_eta|auto]]].
    - destruct (add_candidate_nf i0 p) as (l1 & A1 & B1 & -> & U1). destruct (IH (set_cands i0 l1)) as (l & A & B & -> & U).
      exists l. cbn in A, U. split; [eapply incl_tran; eauto|split; [|split; [reflexivity|]]].
      + intros x [<-|Hx]; [apply A; exact B1|apply B; exact Hx].
      + intros x Hx. destruct (U x Hx) as [H|H]; [|right; right; exact H]. destruct (U1 x H) as [H'|E]; [left; exact H'|right; left; symmetry; exact E]. }
  destruct (G (rev (all_prefixes v)) i) as (l & A & B & E & U). exists l. split; [exact A|split; [|split; [exact E|]]].
  - intros p Hp. apply B. apply in_rev in Hp. exact Hp.
  - intros x Hx. destruct (U x Hx) as [H|H]; [left; exact H|right; apply in_rev; exact H].
Qed.

Definition adopt (i : inst) (v : chain) : inst :=
  let i0 := fst (add_candidate i v) in if chain_eqb v (i_proposal i0) then i0 else set_pv i0 v (i_value i0).
Lemma adopt_nf i v : exists l, incl (i_cands i) l /\ In v l /\ adopt i v = set_pv (set_cands i l) v (i_value i) /\
  (forall x, In x l -> In x (i_cands i) \/ x = v).
Proof.
  unfold adopt. destruct (add_candidate_nf i v) as (l & H1 & H2 & -> & U). exists l. split; [exact H1|split; [exact H2|split; [|exact U]]].
  cbn [i_proposal i_value set_cands].
  destruct (chain_eqb v (i_proposal i)) eqn:E; [|reflexivity]. apply chain_eqb_eq in E. subst v. destruct i; reflexivity.
Qed.

Definition qlp (i : inst) : chain := q_longest_prefix (i_quality i) (i_input i).
Definition settle (i : inst) : inst := set_pv (add_candidate_prefixes (set_pv i (qlp i) (i_value i)) (qlp i)) (qlp i) (qlp i).
Lemma settle_nf i : exists l, incl (i_cands i) l /\ (forall p, In p (all_prefixes (qlp i)) -> In p l) /\
  settle i = set_pv (set_cands i l) (qlp i) (qlp i) /\ (forall x, In x l -> In x (i_cands i) \/ In x (all_prefixes (qlp i))).
Proof.
  unfold settle. destruct (acp_nf (set_pv i (qlp i) (i_value i)) (qlp i)) as (l & A & B & -> & U).
  exists l. split; [exact A|split; [exact B|split; [reflexivity|exact U]]].
Qed.

Definition enter (i : inst) (r : Z) (ph : phase) (q : bool) : inst := reset_rebroadcast (alarm_after c (set_progress i r ph) q).
Lemma quiet_enter i r ph q : quiet (set_progress i r ph) (enter i r ph q).
Proof. unfold enter. eapply quiet_trans; [apply quiet_alarm_after|apply quiet_timers]. Qed.

Lemma begin_commit_cases i (Q : inst -> Prop) :
  let i1 := enter i (i_round i) COMMIT false in
  let cur := get_round i (i_round i) in let nxt := get_round i (i_round i + 1) in
  (i_value i = [] -> Q (emit i1 (OBroadcast (i_round i) COMMIT [] None false))) ->
  (forall j, i_value i <> [] -> j_phase j = PREPARE ->
     (exists sg, q_find_sq_for c (r_prep cur) (i_value i) = FsqSome sg /\ j = build_just (i_round i) PREPARE (i_value i) sg) \/
     q_find_sq_for c (r_prep cur) (i_value i) = FsqNone /\
     (q_get_just (r_comm cur) PREPARE (i_value i) = Some j \/ q_get_just (r_prep nxt) PREPARE (i_value i) = Some j \/
      c_get_just (r_conv nxt) PREPARE (i_value i) = Some j) ->
     Q (emit i1 (OBroadcast (i_round i) COMMIT (i_value i) (Some j) false))) ->
  (i_value i <> [] -> q_find_sq_for c (r_prep cur) (i_value i) = FsqPanic -> Q (fail i1 PFindQuorum)) ->
  (i_value i <> [] -> q_find_sq_for c (r_prep cur) (i_value i) = FsqNone ->
     q_get_just (r_comm cur) PREPARE (i_value i) = None -> q_get_just (r_prep nxt) PREPARE (i_value i) = None ->
     c_get_just (r_conv nxt) PREPARE (i_value i) = None -> Q (fail i1 PBeginCommit)) ->
  Q (begin_commit c i).
Proof.
  intros i1 cur nxt H0 Hj Hp Hn. unfold begin_commit, broadcast. fold (enter i (i_round i) COMMIT false). fold i1.
  change (i_value i1) with (i_value i). change (i_round i1) with (i_round i).
  change (get_round i1 (i_round i)) with cur. change (get_round i1 (i_round i + 1)) with nxt.
  destruct (i_value i) as [|x v] eqn:Ev; [apply H0; reflexivity|].
  assert (Hne : x :: v <> []) by discriminate.
  assert (Hq : forall q j, q_get_just q PREPARE (x :: v) = Some j -> j_phase j = PREPARE).
  { intros q j H. destruct (q_get_just_inv _ _ _ _ H) as (e & _ & _ & Hph & _). exact Hph. }
  destruct (q_find_sq_for c (r_prep cur) (x :: v)) as [| |sg] eqn:Ef.
  - destruct (q_get_just (r_comm cur) PREPARE (x :: v)) as [j|] eqn:E1; [apply Hj; eauto|].
    destruct (q_get_just (r_prep nxt) PREPARE (x :: v)) as [j|] eqn:E2; [apply Hj; eauto|].
    destruct (c_get_just (r_conv nxt) PREPARE (x :: v)) as [j|] eqn:E3; [|apply Hn; auto].
    apply Hj; [exact Hne| |auto]. destruct (c_get_just_inv _ _ _ _ E3) as (e & _ & _ & Hph & _). exact Hph.
  - apply Hp; auto.
  - apply Hj; [exact Hne|reflexivity|]. left. exists sg. split; reflexivity.
Qed.

Lemma begin_decide_cases i round (Q : inst -> Prop) :
  let i1 := reset_rebroadcast (set_progress i (i_round i) DECIDE) in
  (forall sg, q_find_sq_for c (r_comm (get_round i round)) (i_value i) = FsqSome sg ->
     Q (emit i1 (OBroadcast 0 DECIDE (i_value i) (Some (build_just round COMMIT (i_value i) sg)) false))) ->
  (q_find_sq_for c (r_comm (get_round i round)) (i_value i) = FsqNone \/
   q_find_sq_for c (r_comm (get_round i round)) (i_value i) = FsqPanic -> Q (fail i1 PBeginDecide)) ->
  Q (begin_decide c i round).
Proof.
  intros i1 H1 H2. unfold begin_decide, broadcast. fold i1.
  change (get_round i1 round) with (get_round i round). change (i_value i1) with (i_value i).
  destruct (q_find_sq_for c _ _) eqn:E; [apply H2; auto|apply H2; auto|apply H1; reflexivity].
Qed.

Lemma begin_converge_cases i j (Q : inst -> Prop) :
  let rs := get_round i (i_round i) in
  (j_round j <> i_round i - 1 -> Q (fail i PBeginConverge)) ->
  (j_round j = i_round i - 1 ->
     Q (emit (set_round_state (enter i (i_round i) CONVERGE false) (i_round i) (mkR (c_set_self (r_conv rs) (i_proposal i) j) (r_prep rs) (r_comm rs)))
             (OBroadcast (i_round i) CONVERGE (i_proposal i) (Some j) true))) ->
  Q (begin_converge c i j).
Proof.
  intros rs H1 H2. unfold begin_converge. destruct (j_round j =? i_round i - 1) eqn:E; cbn [negb].
  - apply Z.eqb_eq in E. apply H2. exact E.
  - apply Z.eqb_neq in E. apply H1. exact E.
Qed.

Lemma begin_next_round_cases i (Q : inst -> Prop) :
  let i1 := set_progress i (i_round i + 1) (i_phase i) in
  let comm := r_comm (get_round i (i_round i)) in let nxt := get_round i (i_round i + 1) in
  (forall j,
     (exists sg, q_find_sq_for c comm [] = FsqSome sg /\ j = build_just (i_round i) COMMIT [] sg) \/
     q_find_sq_for c comm [] = FsqNone /\
     (q_get_just (r_prep nxt) COMMIT [] = Some j \/ c_get_just (r_conv nxt) COMMIT [] = Some j \/
      exists e, In e (q_just comm) /\ chain_eqb (fst e) (i_proposal i) = true /\ j = snd e) ->
     Q (begin_converge c i1 j)) ->
  (q_find_sq_for c comm [] = FsqPanic -> Q (fail i1 PFindQuorum)) ->
  (q_find_sq_for c comm [] = FsqNone -> q_get_just (r_prep nxt) COMMIT [] = None -> c_get_just (r_conv nxt) COMMIT [] = None ->
     (forall e, In e (q_just comm) -> chain_eqb (fst e) (i_proposal i) = false) -> Q (fail i1 PNextRound)) ->
  Q (begin_next_round c i).
Proof.
  intros i1 comm nxt Hj Hp Hn. unfold begin_next_round. fold i1.
  change (get_round i1 (i_round i1)) with nxt. change (i_proposal i1) with (i_proposal i).
  replace (get_round i1 (i_round i1 - 1)) with (get_round i (i_round i))
    by (change (get_round i1 (i_round i1 - 1)) with (get_round i (i_round i + 1 - 1)); f_equal; lia).
  replace (i_round i1 - 1) with (i_round i) by (cbn; lia). fold comm.
  destruct (q_find_sq_for c comm []) as [| |sg] eqn:Ef.
  - destruct (q_get_just (r_prep nxt) COMMIT []) as [j|] eqn:E1; [apply Hj; auto|].
    destruct (c_get_just (r_conv nxt) COMMIT []) as [j|] eqn:E2; [apply Hj; auto|].
    destruct (filter _ (q_just comm)) as [|e l] eqn:E3.
    + apply Hn; auto. intros e He. destruct (chain_eqb (fst e) (i_proposal i)) eqn:Ec; [|reflexivity].
      assert (Hf : In e (filter (fun e0 => chain_eqb (fst e0) (i_proposal i)) (q_just comm))) by (apply filter_In; split; assumption).
      rewrite E3 in Hf. destruct Hf.
    + assert (Hin : In e (e :: l)) by (left; reflexivity). rewrite <- E3 in Hin. apply filter_In in Hin. destruct Hin as [Hin Hc].
      apply Hj. right. split; [reflexivity|]. right. right. exists e. auto.
  - apply Hp; reflexivity.
  - apply Hj. left. exists sg. split; reflexivity.
Qed.

Lemma skip_to_round_spec i round v j : exists l p w,
  skip_to_round c i round v j = begin_converge c (set_pv (set_cands (set_progress i round (i_phase i)) l) p w) j /\
  incl (i_cands i) l /\
  (j_phase j = PREPARE /\ p = v /\ In v l /\
     (forall x, In x l -> (In x (i_cands i) \/ (i_phase i = QUALITY /\ In x (all_prefixes (qlp i)))) \/ x = v) \/
   j_phase j <> PREPARE /\ i_phase i = QUALITY /\ p = qlp i /\ (forall x, In x (all_prefixes (qlp i)) -> In x l) /\
     (forall x, In x l -> In x (i_cands i) \/ In x (all_prefixes (qlp i))) \/
   j_phase j <> PREPARE /\ i_phase i <> QUALITY /\ p = i_proposal i /\ l = i_cands i).
Proof.
  unfold skip_to_round. set (i1 := set_progress i round (i_phase i)).
  change (i_phase i1) with (i_phase i).
  assert (H2 : exists l p w, (if phase_eqb (i_phase i) QUALITY then settle i1 else i1) = set_pv (set_cands i1 l) p w /\ incl (i_cands i) l /\
            (i_phase i = QUALITY /\ p = qlp i /\ (forall x, In x (all_prefixes (qlp i)) -> In x l) /\
               (forall x, In x l -> In x (i_cands i) \/ In x (all_prefixes (qlp i))) \/
             i_phase i <> QUALITY /\ p = i_proposal i /\ l = i_cands i)).
  { destruct (phase_eqb (i_phase i) QUALITY) eqn:Eq.
    - apply phase_eqb_true in Eq. destruct (settle_nf i1) as (l & A & B & -> & U). exists l, (qlp i), (qlp i). split; [reflexivity|split; [exact A|left; auto]].
    - apply phase_eqb_false in Eq. exists (i_cands i), (i_proposal i), (i_value i). split; [destruct i; reflexivity|split; [apply incl_refl|right; auto]]. }
  destruct H2 as (l & p & w & E2 & A2 & F2). fold (qlp i1). fold (settle i1). rewrite E2.
  destruct (phase_eqb (j_phase j) PREPARE) eqn:Ej.
  - apply phase_eqb_true in Ej. destruct (add_candidate_nf (set_pv (set_cands i1 l) p w) v) as (l' & A & B & -> & U). cbn in A, U.
    exists l', v, w. split; [reflexivity|split; [eapply incl_tran; eauto|left]]. split; [exact Ej|split; [reflexivity|split; [exact B|]]].
    intros x Hx. destruct (U x Hx) as [H|H]; [left|right; exact H].
    destruct F2 as [(F1 & _ & _ & F4)|(_ & _ & ->)]; [|left; exact H]. destruct (F4 x H) as [H'|H']; [left; exact H'|right; split; assumption].
  - apply phase_eqb_false in Ej. exists l, p, w. split; [reflexivity|split; [exact A2|right]].
    destruct F2 as [(F1 & F2 & F3 & F4)|(F1 & F2 & F3)]; [left; auto|right; auto].
Qed.

Lemma try_quality_cases i (Q : inst -> Prop) :
  (q_has_sq (i_quality i) (i_proposal i) = false -> phase_timeout_elapsed i = false -> Q i) ->
  (q_has_sq (i_quality i) (i_proposal i) = true \/ phase_timeout_elapsed i = true -> Q (begin_prepare c (settle i) None)) ->
  Q (try_quality c i).
Proof.
  intros H1 H2. unfold try_quality. destruct (_ || _) eqn:E.
  - apply H2. apply orb_prop. exact E.
  - apply orb_false_elim in E. apply H1; apply E.
Qed.

Definition conv_valid (i : inst) (cv : cvalue) : bool :=
  is_candidate i (cv_chain cv) ||
  (phase_eqb (j_phase (cv_just cv)) PREPARE && q_could_reach c (r_comm (get_round i (i_round i - 1))) (cv_chain cv) true).
Lemma try_converge_cases i (Q : inst -> Prop) :
  (phase_timeout_elapsed i = false -> Q i) ->
  (phase_timeout_elapsed i = false -> Q (try_rebroadcast c i)) ->
  (c_find_best (r_conv (get_round i (i_round i))) (conv_valid i) = None -> Q (fail i ENoConvergeValue)) ->
  (forall w l, c_find_best (r_conv (get_round i (i_round i))) (conv_valid i) = Some w ->
     incl (i_cands i) l -> In (cv_chain w) l -> (forall x, In x l -> In x (i_cands i) \/ x = cv_chain w) ->
     Q (begin_prepare c (set_pv (set_cands i l) (cv_chain w) (cv_chain w)) (Some (cv_just w)))) ->
  Q (try_converge c i).
Proof.
  intros H1 H2 H3 H4. unfold try_converge. destruct (phase_timeout_elapsed i) eqn:Et; cbn [negb].
  - change (fun cv => is_candidate i (cv_chain cv) || (phase_eqb (j_phase (cv_just cv)) PREPARE &&
        q_could_reach c (r_comm (get_round i (i_round i - 1))) (cv_chain cv) true)) with (conv_valid i).
    destruct (c_find_best _ (conv_valid i)) as [w|] eqn:Eb; [|apply H3; reflexivity].
    destruct (add_candidate_nf i (cv_chain w)) as (l & A & B & -> & U). apply H4; auto.
  - destruct (should_rebroadcast c i); [apply H2|apply H1]; reflexivity.
Qed.

Lemma NE_try_converge S i : ~ S ENoConvergeValue -> i_err i = None -> NE S (try_converge c i).
Proof.
  intros HS He. apply try_converge_cases; intros; try (apply NE_none; exact He).
  - apply NE_none. rewrite (err_quiet _ _ (quiet_try_rebroadcast i)). exact He.
  - apply NE_fail; [exact HS|apply NE_none; exact He].
Qed.

Lemma try_prepare_cases i (Q : inst -> Prop) :
  let cur := get_round i (i_round i) in let nxt := get_round i (i_round i + 1) in let k := i_proposal i in
  (q_has_sq (r_prep cur) k = true \/ q_has_just (r_comm cur) PREPARE k = true \/ q_has_just (r_prep nxt) PREPARE k = true \/
   c_has_just (r_conv nxt) PREPARE k = true -> Q (begin_commit c (set_pv i k k))) ->
  (q_has_sq (r_prep cur) k = false ->
   q_could_reach c (r_prep cur) k false = false \/ (phase_timeout_elapsed i = true /\ q_from_strong c (r_prep cur) = true) ->
   Q (begin_commit c (set_pv i k []))) ->
  (phase_timeout_elapsed i && q_from_strong c (r_prep cur) = false -> Q i) ->
  (phase_timeout_elapsed i && q_from_strong c (r_prep cur) = false -> Q (try_rebroadcast c i)) ->
  Q (try_prepare c i).
Proof.
  intros cur nxt k H1 H2 H3 H4. unfold try_prepare. fold cur. fold nxt. fold k. cbv zeta.
  destruct (q_has_sq (r_prep cur) k) eqn:Ef; cbn [orb].
  { apply H1. left. reflexivity. }
  destruct (q_has_just (r_comm cur) PREPARE k) eqn:E1; cbn [orb]; [apply H1; auto|].
  destruct (q_has_just (r_prep nxt) PREPARE k) eqn:E2; cbn [orb]; [apply H1; auto|].
  destruct (c_has_just (r_conv nxt) PREPARE k) eqn:E3; cbn [orb]; [apply H1; auto 6|].
  destruct (q_could_reach c (r_prep cur) k false) eqn:Er; cbn [negb orb]; [|apply H2; auto].
  destruct (phase_timeout_elapsed i && q_from_strong c (r_prep cur)) eqn:Ec.
  - apply H2; auto. right. apply andb_prop. exact Ec.
  - destruct (should_rebroadcast c i); [apply H4|apply H3]; auto.
Qed.

Lemma try_commit_cases i round sway (Q : inst -> Prop) :
  let comm := r_comm (get_round i round) in
  let nz := filter (fun v => negb (is_zero v)) (q_all_values comm) in
  (q_find_sq_value comm = FsvPanic -> Q (fail i PMultiQuorum)) ->
  (forall x v, q_find_sq_value comm = FsvSome (x :: v) -> Q (begin_decide c (set_pv i (i_proposal i) (x :: v)) round)) ->
  (i_round i <> round \/ i_phase i <> COMMIT \/ phase_timeout_elapsed i && q_from_strong c comm = false -> Q i) ->
  (i_round i = round -> i_phase i = COMMIT ->
     q_find_sq_value comm = FsvSome [] \/
     (q_find_sq_value comm = FsvNone /\ (q_has_just (r_prep (get_round i (round + 1))) COMMIT [] = true \/ c_has_just (r_conv (get_round i (round + 1))) COMMIT [] = true)) ->
     Q (begin_next_round c i)) ->
  (i_round i = round -> i_phase i = COMMIT ->
     forall l v, incl (i_cands i) l -> In v l -> In v nz -> (forall x, In x l -> In x (i_cands i) \/ x = v) ->
     Q (begin_next_round c (set_pv (set_cands i l) v (i_value i)))) ->
  (i_round i = round -> i_phase i = COMMIT -> q_find_sq_value comm = FsvNone -> q_from_strong c comm = true -> nz = [] -> Q (begin_next_round c i)) ->
  (phase_timeout_elapsed i && q_from_strong c comm = false -> Q (try_rebroadcast c i)) ->
  Q (try_commit c i round sway).
Proof.
  intros comm nz H1 H2 H3 H4 H5 H6 H7. unfold try_commit. fold comm. fold nz.
  assert (G : forall b, (b = true -> q_find_sq_value comm = FsvSome []) -> (b = false -> q_find_sq_value comm = FsvNone) ->
    Q (if negb (i_round i =? round) || negb (phase_eqb (i_phase i) COMMIT) then i else
       if b || (q_has_just (r_prep (get_round i (round + 1))) COMMIT [] || c_has_just (r_conv (get_round i (round + 1))) COMMIT []) then begin_next_round c i else
       if phase_timeout_elapsed i && q_from_strong c comm then
         begin_next_round c (match (match sway with Some s => if existsb (chain_eqb s) nz then Some s else hd_error nz | None => hd_error nz end) with
                             | Some v => adopt i v | None => i end)
       else if should_rebroadcast c i then try_rebroadcast c i else i)).
  { intros b Hb1 Hb0. destruct (negb (i_round i =? round)) eqn:Hr; cbn [orb].
    { apply H3. left. apply negb_true_iff, Z.eqb_neq in Hr. exact Hr. }
    destruct (negb (phase_eqb (i_phase i) COMMIT)) eqn:Hp.
    { apply H3. right. left. apply negb_true_iff, phase_eqb_false in Hp. exact Hp. }
    apply negb_false_iff, Z.eqb_eq in Hr. apply negb_false_iff, phase_eqb_true in Hp.
    destruct b; cbn [orb]; [apply H4; auto|]. specialize (Hb0 eq_refl).
    destruct (_ || _) eqn:Hj; [apply H4; auto; right; split; [exact Hb0|apply orb_prop; exact Hj]|].
    destruct (_ && _) eqn:Hcomp; [|destruct (should_rebroadcast c i); [apply H7; auto|apply H3; auto]].
    apply andb_prop in Hcomp. destruct Hcomp as [_ Hs].
    assert (Hh : forall w, hd_error nz = Some w -> In w nz) by (intros w; destruct nz; cbn; [discriminate|intros H; injection H as ->; left; reflexivity]).
    destruct (match sway with Some s => if existsb (chain_eqb s) nz then Some s else hd_error nz | None => hd_error nz end) as [v|] eqn:Ep.
    - assert (Hv : In v nz).
      { destruct sway as [s|]; [|apply Hh; exact Ep]. destruct (existsb (chain_eqb s) nz) eqn:Ex; [|apply Hh; exact Ep].
        injection Ep as <-. apply existsb_exists in Ex. destruct Ex as (y & Hy & Hsy). apply chain_eqb_eq in Hsy. subst y. exact Hy. }
      destruct (adopt_nf i v) as (l & A & B & -> & U). apply H5; assumption.
    - apply H6; try assumption. destruct sway as [s|]; [destruct (existsb (chain_eqb s) nz); [discriminate Ep|]|]; destruct nz; try reflexivity; discriminate Ep. }
  destruct (q_find_sq_value comm) as [| |[|x v]] eqn:Ev.
  - apply (G false); [discriminate|reflexivity].
  - apply H1; reflexivity.
  - apply (G true); [reflexivity|discriminate].
  - apply H2; reflexivity.
Qed.

Lemma try_decide_cases i (Q : inst -> Prop) :
  (q_find_sq_value (i_decision i) = FsvPanic -> Q (fail i PMultiQuorum)) ->
  (forall v sg, q_find_sq_value (i_decision i) = FsvSome v -> q_find_sq_for c (i_decision i) v = FsqSome sg ->
     Q (terminate i (build_just 0 DECIDE v sg))) ->
  (forall v, q_find_sq_value (i_decision i) = FsvSome v -> (forall sg, q_find_sq_for c (i_decision i) v <> FsqSome sg) -> Q (fail i PTryDecide)) ->
  (q_find_sq_value (i_decision i) = FsvNone -> Q (try_rebroadcast c i)) ->
  Q (try_decide c i).
Proof.
  intros H1 H2 H3 H4. unfold try_decide. destruct (q_find_sq_value (i_decision i)) as [| |v] eqn:E; [apply H4|apply H1|]; try reflexivity.
  destruct (q_find_sq_for c (i_decision i) v) eqn:F; [apply (H3 v); [reflexivity|congruence]|apply (H3 v); [reflexivity|congruence]|apply (H2 v); [reflexivity|exact F]].
Qed.

Lemma try_current_phase_cases i sway (Q : inst -> Prop) :
  (i_phase i = INITIAL -> Q (fail i EPhase)) -> (i_phase i = QUALITY -> Q (try_quality c i)) ->
  (i_phase i = CONVERGE -> Q (try_converge c i)) -> (i_phase i = PREPARE -> Q (try_prepare c i)) ->
  (i_phase i = COMMIT -> Q (try_commit c i (i_round i) sway)) -> (i_phase i = DECIDE -> Q (try_decide c i)) ->
  (i_phase i = TERMINATED -> Q i) -> Q (try_current_phase c i sway).
Proof. intros H0 H1 H2 H3 H4 H5 H6. unfold try_current_phase. destruct (i_phase i); auto. Qed.

(* a second Start is the driver's error *)
Lemma begin_quality_cases i (Q : inst -> Prop) :
  (i_phase i <> INITIAL -> Q (fail i EPhase)) ->
  (i_phase i = INITIAL -> Q (emit (enter i (i_round i) QUALITY true) (OBroadcast (i_round i) QUALITY (i_proposal i) None false))) ->
  Q (begin_quality c i).
Proof.
  intros H1 H2. unfold begin_quality. destruct (phase_eqb (i_phase i) INITIAL) eqn:E; cbn [negb].
  - apply H2, phase_eqb_true, E.
  - apply H1, phase_eqb_false, E.
Qed.

Lemma post_receive_old_round i round : round <= i_round i -> post_receive c i round = i.
Proof. intros H. unfold post_receive. replace (round <=? i_round i) with true by (symmetry; apply Z.leb_le; exact H). reflexivity. Qed.
Lemma post_receive_cases i round (Q : inst -> Prop) :
  Q i ->
  (forall w, i_round i < round -> i_phase i <> DECIDE -> q_from_weak c (r_prep (get_round i round)) = true ->
     c_find_best (r_conv (get_round i round)) (fun _ => true) = Some w -> Q (skip_to_round c i round (cv_chain w) (cv_just w))) ->
  Q (post_receive c i round).
Proof.
  intros H0 H1. unfold post_receive. destruct (_ || _) eqn:Hc; [exact H0|].
  apply orb_false_elim in Hc. destruct Hc as [Hr Hp]. apply Z.leb_gt in Hr. apply phase_eqb_false in Hp.
  destruct (q_from_weak c _) eqn:Hw; cbn [negb]; [|exact H0].
  destruct (c_find_best _ _) as [w|] eqn:Eb; [apply H1; auto|exact H0].
Qed.

Definition prep_update (q : qstate) (sender : Z) (v : chain) (oj : option just) : qstate :=
  let q1 := q_receive c q sender v in match oj with Some j => q_receive_just q1 v j | None => q1 end.
Definition comm_update (q : qstate) (sender : Z) (v : chain) (oj : option just) : qstate :=
  let q1 := q_receive c q sender v in
  match v, oj with _ :: _, Some j => q_receive_just q1 v j | _, _ => q1 end.

Lemma receive_one_terminated i m sway : i_phase i = TERMINATED -> receive_one c i m sway = (i, false).
Proof. intros H. unfold receive_one. rewrite H. reflexivity. Qed.
Lemma receive_one_cases i m sway (Q : inst -> Prop) :
  let r := m_round m in let rs := get_round i r in
  Q i ->
  (m_phase m = CONVERGE -> c_receive (r_conv rs) (m_sender m) (m_value m) (m_rank m) (m_just m) = None -> Q (fail i EConvergeMsg)) ->
  (m_phase m = INITIAL \/ m_phase m = TERMINATED -> Q (fail i EPhase)) ->
  (m_phase m = QUALITY -> i_phase i <> TERMINATED ->
     let i1 := set_round_state (set_quality i (q_receive_prefixes c (i_quality i) (m_sender m) (m_value m))) r rs in
     (i_phase i <> QUALITY -> Q (update_candidates_from_quality i1)) /\ (i_phase i = QUALITY -> Q (try_current_phase c i1 sway))) ->
  (m_phase m = CONVERGE -> i_phase i <> TERMINATED -> forall cs, c_receive (r_conv rs) (m_sender m) (m_value m) (m_rank m) (m_just m) = Some cs ->
     Q (try_current_phase c (set_round_state i r (mkR cs (r_prep rs) (r_comm rs))) sway)) ->
  (m_phase m = PREPARE -> i_phase i <> TERMINATED ->
     Q (try_current_phase c (set_round_state i r (mkR (r_conv rs) (prep_update (r_prep rs) (m_sender m) (m_value m) (m_just m)) (r_comm rs))) sway)) ->
  (m_phase m = COMMIT -> i_phase i <> TERMINATED ->
     let i1 := set_round_state i r (mkR (r_conv rs) (r_prep rs) (comm_update (r_comm rs) (m_sender m) (m_value m) (m_just m))) in
     (i_phase i = DECIDE -> Q (try_current_phase c i1 sway)) /\
     (i_phase i <> DECIDE -> let i2 := try_commit c i1 r sway in
        Q i2 /\ (i_err i2 = None -> i_phase i2 = PREPARE -> i_round i2 = r -> Q (try_current_phase c i2 sway)))) ->
  (m_phase m = DECIDE -> i_phase i <> TERMINATED ->
     let i1 := set_round_state (set_decision i (q_receive c (i_decision i) (m_sender m) (m_value m))) r rs in
     (i_phase i = DECIDE -> Q (try_current_phase c i1 sway)) /\ (i_phase i <> DECIDE -> Q (try_current_phase c (skip_to_decide i1 (m_value m) (m_just m)) sway))) ->
  Q (fst (receive_one c i m sway)).
Proof.
  intros r rs H0 Hce Hph HQ HC HP HM HD. unfold receive_one. fold r. fold rs.
  destruct (phase_eqb (i_phase i) TERMINATED) eqn:Ht; [exact H0|]. apply phase_eqb_false in Ht.
  destruct (_ && (_ || _)); [exact H0|]. destruct (_ && is_spammable m); [exact H0|].
  destruct (m_phase m) eqn:Ep; cbn [fst].
  - apply Hph; auto.
  - destruct (HQ eq_refl Ht) as [A B]. cbv zeta. cbn [i_phase set_round_state set_quality].
    destruct (phase_eqb (i_phase i) QUALITY) eqn:E; cbn [negb fst]; [apply B, phase_eqb_true, E|apply A, phase_eqb_false, E].
  - destruct (c_receive _ _ _ _ _) eqn:E; cbn [fst]; [apply HC; auto|apply Hce; auto].
  - apply HP; auto.
  - destruct (HM eq_refl Ht) as [A B]. cbv zeta. cbn [i_phase set_round_state].
    change (match m_value m with [] => q_receive c (r_comm rs) (m_sender m) (m_value m) | _ :: _ => match m_just m with Some j => q_receive_just (q_receive c (r_comm rs) (m_sender m) (m_value m)) (m_value m) j | None => q_receive c (r_comm rs) (m_sender m) (m_value m) end end)
      with (comm_update (r_comm rs) (m_sender m) (m_value m) (m_just m)).
    destruct (phase_eqb (i_phase i) DECIDE) eqn:E; cbn [negb fst]; [apply A, phase_eqb_true, E|].
    apply phase_eqb_false in E. destruct (B E) as [B1 B2].
    match goal with |- context [if ?b then _ else _] => destruct b eqn:Hag end; cbn [fst]; [|exact B1].
    apply andb_prop in Hag. destruct Hag as [Hag _]. apply andb_prop in Hag. destruct Hag as [Hag H3]. apply andb_prop in Hag. destruct Hag as [H1 H2].
    apply B2; [apply err_none_b; exact H1|apply phase_eqb_true; exact H2|apply Z.eqb_eq; exact H3].
  - destruct (HD eq_refl Ht) as [A B]. cbv zeta. cbn [i_phase set_round_state set_decision].
    destruct (phase_eqb (i_phase i) DECIDE) eqn:E; cbn [negb]; [apply A, phase_eqb_true, E|apply B, phase_eqb_false, E].
  - apply Hph; auto.
Qed.

End Cfg.
