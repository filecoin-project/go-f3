(* Refinement, one participant: every broadcast of a Layer-N instance satisfies the Layer-S guard on the global vote set,
   provided what is delivered to it is admissible (the delivered vote is in the global set; the carried justification has
   the shape validation enforces and is backed by a strong quorum whose honest members cast that vote). *)
From Coq Require Import ZArith List Bool Lia.
From F3 Require Import InstanceStep QuorumProofs Sets Instance InstanceRun InstanceOrder InstanceVotes InstanceDecide InstanceQuorum InstanceNoPanic InstanceJust Refine.
From F3 Require Spec.
Import ListNotations.
Open Scope Z_scope.

Section Node.
Variable c : config.
Variable honest : nat -> bool.
Variable input : nat -> chain.
Hypothesis Hwf : committee_wf c.
(* scaled powers are 16-bit in the Go code; needed for could_reach_sound in other_prepare only *)
Hypothesis Hscaled : c_total c <= 65535.
Variable k : Z.                         (* this participant's power-table index *)
Hypothesis Hk : 0 <= k < Z.of_nat (nmem c).
Variable E0 : list Spec.vote.           (* the global vote set when the current step began *)

Notation SQz := (SQz c honest).
Notation backed := (backed c honest).
Notation justifiedz := (justifiedz c honest).
Notation guardz := (guardz c honest input).

Definition kin : chain := input (Z.to_nat k).

(* the votes this participant has cast in the current step (newest first, like i_out) *)
Definition ovotes (outs : list out) : list Spec.vote :=
  flat_map (fun o => match o with OBroadcast r p v _ _ => [voteS k r p v] | _ => [] end) outs.
Definition EV (i : inst) : list Spec.vote := ovotes (i_out i) ++ E0.
Definition votable (p : phase) : Prop := match p with INITIAL | TERMINATED => False | _ => True end.

Definition jprev (E : list Spec.vote) (r : Z) (v : chain) (j : just) : Prop :=
  backed E j /\ j_round j = r - 1 /\ ((j_phase j = PREPARE /\ j_value j = v) \/ (j_phase j = COMMIT /\ j_value j = [])).
Definition jsame (E : list Spec.vote) (r : Z) (v : chain) (j : just) : Prop :=
  backed E j /\ j_round j = r /\ j_phase j = PREPARE /\ j_value j = v.

Lemma jprev_mono E E' r v j : incl E E' -> jprev E r v j -> jprev E' r v j.
Proof. intros Hi (A & B & C). split; [eapply backed_mono; eauto|auto]. Qed.
Lemma jsame_mono E E' r v j : incl E E' -> jsame E r v j -> jsame E' r v j.
Proof. intros Hi (A & B & C). split; [eapply backed_mono; eauto|auto]. Qed.

Definition evid (E : list Spec.vote) (v : chain) : Prop :=
  Spec.is_prefix v kin \/ exists r p, 0 <= r /\ SQz E r p v.
(* the justification attached to an own broadcast is what a peer's validation demands (cf. adm below) *)
Definition admj (E : list Spec.vote) (r : Z) (p : phase) (v : chain) (j : option just) : Prop :=
  match p with
  | QUALITY => r = 0 /\ v <> [] /\ j = None
  | CONVERGE => 1 <= r /\ v <> [] /\ exists jj, j = Some jj /\ jprev E r v jj
  | PREPARE => (r = 0 /\ j = None) \/ (1 <= r /\ exists jj, j = Some jj /\ jprev E r v jj)
  | COMMIT => (v = [] /\ j = None) \/ (v <> [] /\ exists jj, j = Some jj /\ jsame E r v jj)
  | DECIDE => r = 0 /\ v <> [] /\ exists jj, j = Some jj /\ backed E jj /\ j_phase jj = COMMIT /\ j_value jj = v
  | _ => False
  end.
(* each broadcast of the current step is checked against the votes cast before it *)
Fixpoint log_ok (outs : list out) : Prop :=
  match outs with
  | [] => True
  | OBroadcast r p v j _ :: rest =>
      guardz (ovotes rest ++ E0) k r p v /\ 0 <= r /\ votable p /\
      admj (ovotes rest ++ E0) r p v j /\ (v <> [] -> evid (ovotes rest ++ E0) v) /\ log_ok rest
  | _ :: rest => log_ok rest
  end.
Lemma evid_mono E E' v : incl E E' -> evid E v -> evid E' v.
Proof. intros Hi [H|(r & p & H0 & H)]; [left; exact H|right; exists r, p; split; [exact H0|eapply SQz_mono; eauto]]. Qed.

Record QE (E : list Spec.vote) (r : Z) (p : phase) (q : qstate) : Prop := {
  qe_range : forall x, In x (q_senders q) -> 0 <= x < Z.of_nat (nmem c);
  qe_votes : forall s, In s (q_support q) -> forall x, In x (s_signers s) -> In (voteS x r p (s_chain s)) E;
  qe_spower : q_spower q = sum_power c (q_senders q) }.
(* re_pjd is needed only for the guard of COMMIT for bottom *)
Record RE (E : list Spec.vote) (r : Z) (rs : rstate) : Prop := {
  re_prep : QE E r PREPARE (r_prep rs);
  re_pcov : Cov (r_prep rs);
  re_pjust : forall e, In e (q_just (r_prep rs)) -> jprev E r (fst e) (snd e);
  re_pjd : forall s, In s (q_support (r_prep rs)) -> s_signers s <> [] -> justifiedz E r (s_chain s);
  re_comm : QE E r COMMIT (r_comm rs);
  re_cjust : forall e, In e (q_just (r_comm rs)) -> jsame E r (fst e) (snd e) /\ fst e <> [];
  re_conv : forall cv, In cv (cs_values (r_conv rs)) -> jprev E r (cv_chain cv) (cv_just cv) /\ cv_chain cv <> [] }.
Definition Cands (E : list Spec.vote) (rho : Z) (l : list chain) : Prop :=
  forall v, In v l -> v <> [] /\ (Spec.is_prefix v kin \/ exists r1, 0 <= r1 < rho /\ SQz E r1 PREPARE v).
(* independent of the participant's progress; rho bounds the rounds of the candidates' evidence *)
Record EvC (E : list Spec.vote) (rho : Z) (i : inst) : Prop := {
  ec_rounds : forall r, RE E r (rget (i_rounds i) r);
  ec_dec : QE E 0 DECIDE (i_decision i);
  ec_cands : Cands E rho (i_cands i);
  ec_input : i_input i = kin /\ kin <> [];
  ec_prop : i_proposal i <> [];
  ec_pev : evid E (i_proposal i) }.
Definition EvP (E : list Spec.vote) (i : inst) : Prop :=
  (i_phase i = PREPARE -> In (voteS k (i_round i) PREPARE (i_proposal i)) E) /\
  (i_phase i = QUALITY -> i_round i = 0) /\ (i_phase i = CONVERGE -> 1 <= i_round i) /\ 0 <= i_round i.
Definition EvI (E : list Spec.vote) (i : inst) : Prop := EvC E (i_round i) i /\ EvP E i.
Definition Ev (i : inst) : Prop := EvI (EV i) i /\ log_ok (i_out i).

Lemma QE_mono E E' r p q : incl E E' -> QE E r p q -> QE E' r p q.
Proof. intros Hi [A B C]. constructor; auto. Qed.
Lemma RE_mono E E' r rs : incl E E' -> RE E r rs -> RE E' r rs.
Proof.
  intros Hi [A B C D F G H]. constructor; auto.
  - eapply QE_mono; eauto.
  - intros e He. eapply jprev_mono; eauto.
  - intros s Hs Hn. eapply justifiedz_mono; eauto.
  - eapply QE_mono; eauto.
  - intros e He. destruct (G e He). split; [eapply jsame_mono; eauto|assumption].
  - intros cv Hcv. destruct (H cv Hcv). split; [eapply jprev_mono; eauto|assumption].
Qed.
Lemma Cands_mono E E' rho rho' l : incl E E' -> rho <= rho' -> Cands E rho l -> Cands E' rho' l.
Proof.
  intros Hi Hr H v Hv. destruct (H v Hv) as [N [P|(r1 & R1 & S1)]]; split; auto. right. exists r1. split; [lia|eapply SQz_mono; eauto].
Qed.
Lemma EvC_mono E E' rho rho' i : incl E E' -> rho <= rho' -> EvC E rho i -> EvC E' rho' i.
Proof.
  intros Hi Hr [A B C D F G]. constructor; auto.
  - intros r. eapply RE_mono; eauto.
  - eapply QE_mono; eauto.
  - eapply Cands_mono; eauto.
  - eapply evid_mono; eauto.
Qed.
Lemma EvP_intro E i : 0 <= i_round i ->
  match i_phase i with
  | QUALITY => i_round i = 0 | CONVERGE => 1 <= i_round i
  | PREPARE => In (voteS k (i_round i) PREPARE (i_proposal i)) E | _ => True
  end -> EvP E i.
Proof. intros Hr H. unfold EvP. destruct (i_phase i); repeat split; try discriminate; auto. Qed.
Lemma EvI_mono E E' i : incl E E' -> EvI E i -> EvI E' i.
Proof. intros Hi [A (B & B')]. split; [eapply EvC_mono; eauto; lia|split; auto]. Qed.

Lemma RE_empty E r : RE E r r_empty.
Proof. constructor; cbn; try (intros ? []); try reflexivity; constructor; cbn; try (intros ? []); reflexivity. Qed.

Lemma valS_some w : w <> [] -> valS w = Some w.
Proof. destruct w; [congruence|reflexivity]. Qed.
Lemma to_nat_S r : 1 <= r -> Z.to_nat r = S (Z.to_nat (r - 1)).
Proof. intros H. lia. Qed.

Lemma guardz_quality E w : w <> [] -> w = kin -> guardz E k 0 QUALITY w.
Proof. intros Hne ->. unfold Refine.guardz, Spec.guard, voteS. cbn. rewrite valS_some by exact Hne. split; reflexivity. Qed.

Lemma jprev_cases E r w j : jprev E r w j -> SQz E (r - 1) PREPARE w \/ SQz E (r - 1) COMMIT [].
Proof. intros ((_ & Hb) & Hr & [[Hp Hv]|[Hp Hv]]); rewrite Hr, Hp, Hv in Hb; [left|right]; exact Hb. Qed.

Lemma guardz_converge E r w j : 1 <= r -> w <> [] -> jprev E r w j -> guardz E k r CONVERGE w.
Proof.
  intros Hr Hne Hj. unfold Refine.guardz, Spec.guard, voteS. cbn. rewrite valS_some by exact Hne.
  exists (Z.to_nat (r - 1)). split; [apply to_nat_S; exact Hr|].
  destruct (jprev_cases _ _ _ _ Hj) as [H|H]; [left|right]; unfold Refine.SQz in H; cbn in H; [rewrite valS_some in H by exact Hne|]; exact H.
Qed.

Lemma guardz_prepare0 E w : w <> [] -> Spec.is_prefix w kin -> guardz E k 0 PREPARE w.
Proof. intros Hne Hp. unfold Refine.guardz, Spec.guard, voteS. cbn. rewrite valS_some by exact Hne. exact Hp. Qed.

Lemma guardz_prepareS E r w j : 1 <= r -> w <> [] -> jprev E r w j ->
  (j_phase j = COMMIT -> Spec.is_prefix w kin \/ exists r1, 0 <= r1 < r /\ SQz E r1 PREPARE w) ->
  guardz E k r PREPARE w.
Proof.
  intros Hr Hne Hj Hc. unfold Refine.guardz, Spec.guard, voteS. cbn. rewrite valS_some by exact Hne.
  rewrite (to_nat_S r Hr).
  destruct Hj as ((_ & Hb) & Hjr & [[Hp Hv]|[Hp Hv]]); rewrite Hjr, Hp, Hv in Hb; unfold Refine.SQz in Hb; cbn in Hb.
  - left. rewrite valS_some in Hb by exact Hne. exact Hb.
  - right. split; [exact Hb|]. destruct (Hc Hp) as [H|(r1 & Hr1 & H)]; [left; exact H|right].
    exists (Z.to_nat r1). split; [lia|]. unfold Refine.SQz in H. cbn in H. rewrite valS_some in H by exact Hne. exact H.
Qed.

Lemma guardz_commit E r w : w <> [] -> In (voteS k r PREPARE w) E -> SQz E r PREPARE w -> guardz E k r COMMIT w.
Proof.
  intros Hne Hown Hsq. unfold Refine.guardz, Spec.guard, voteS in *. cbn in *. unfold Refine.SQz in Hsq. cbn in Hsq.
  rewrite valS_some in * by exact Hne. split; assumption.
Qed.

Lemma guardz_commit_bot E r w t x : w <> [] -> In (voteS k r PREPARE w) E -> x <> w ->
  In (voteS t r PREPARE x) E -> justifiedz E r x -> guardz E k r COMMIT [].
Proof.
  intros Hne Hown Hx Hin Hj. unfold Refine.guardz, Spec.guard, voteS in *. cbn in *. rewrite valS_some in Hown by exact Hne.
  exists w. split; [exact Hown|]. exists (Z.to_nat t), (valS x). split; [|split; [exact Hin|exact Hj]].
  destruct x; cbn; [discriminate|intros H; injection H as H; congruence].
Qed.

Lemma guardz_decide E w r : w <> [] -> SQz E r COMMIT w -> guardz E k 0 DECIDE w.
Proof.
  intros Hne Hsq. unfold Refine.guardz, Spec.guard, voteS. cbn. unfold Refine.SQz in Hsq. cbn in Hsq.
  rewrite valS_some in * by exact Hne. split; [reflexivity|]. exists (Z.to_nat r). exact Hsq.
Qed.

Lemma local_SQ E r p q v s : QS c q -> QE E r p q -> sup_find (q_support q) v = Some s -> s_sq s = true -> SQz E r p v.
Proof.
  intros HQ HE Hf Hs. destruct (sup_find_In _ _ _ Hf) as [Hin Hc]. destruct (qs_sup c q HQ s Hin) as [A B C D].
  apply (signers_SQ c honest Hwf E r p v (s_signers s)).
  - exact A.
  - intros x Hx. apply (qe_range _ _ _ _ HE). apply B. exact Hx.
  - rewrite <- C, <- D. exact Hs.
  - intros x Hx. rewrite <- Hc. apply (qe_votes _ _ _ _ HE s Hin x Hx).
Qed.

Definition cview (i : inst) := (i_rounds i, i_decision i, i_cands i, i_input i, i_proposal i).
Definition pview' (i : inst) := (i_phase i, i_round i, i_proposal i).
Lemma EvC_view E rho i i' : cview i' = cview i -> EvC E rho i -> EvC E rho i'.
Proof. unfold cview. intros Ev' [A B C D F G]. injection Ev' as E1 E2 E3 E4 E5. constructor; rewrite ?E1, ?E2, ?E3, ?E4, ?E5; assumption. Qed.
Lemma EvP_view E i i' : pview' i' = pview' i -> EvP E i -> EvP E i'.
Proof. unfold pview', EvP. intros Ev'. injection Ev' as -> -> ->. auto. Qed.

(* a step that leaves the evidence-bearing fields alone keeps EvC, over any larger vote set *)
Lemma EvC_keep E i i' : cview i' = cview i -> incl (EV i) E -> EvC (EV i) (i_round i) i -> EvC E (i_round i) i'.
Proof. intros Hv Hi HC. apply (EvC_view E _ i i' Hv). exact (EvC_mono (EV i) E _ _ i Hi (Z.le_refl _) HC). Qed.

Definition same_votes (i i' : inst) : Prop :=
  ovotes (i_out i') = ovotes (i_out i) /\ (log_ok (i_out i) -> log_ok (i_out i')).
Lemma Ev_view i i' : cview i' = cview i -> pview' i' = pview' i -> same_votes i i' -> Ev i -> Ev i'.
Proof.
  intros Hc Hp [Hv Hl] [[A B] L]. assert (HE : EV i' = EV i) by (unfold EV; rewrite Hv; reflexivity).
  split; [|apply Hl; exact L]. rewrite HE. split.
  - assert (Hr : i_round i' = i_round i) by (unfold pview' in Hp; congruence). rewrite Hr. eapply EvC_view; eauto.
  - eapply EvP_view; eauto.
Qed.
Lemma same_votes_refl i : same_votes i i. Proof. split; auto. Qed.

Lemma Ev_quiet i i' : quiet i i' -> Ev i -> Ev i'.
Proof.
  intros [Hc (l & Ho & Hl)]. destruct (core_fields _ _ Hc) as (E1 & E2 & _ & E4 & _ & E6 & E7 & E8 & E9 & _).
  apply Ev_view; [unfold cview; congruence|unfold pview'; congruence|]. unfold same_votes. rewrite Ho.
  clear -Hl. induction Hl as [|o l Ho _ IH]; [split; auto|]. destruct o; [destruct Ho|exact IH|exact IH].
Qed.
Lemma Ev_try_rebroadcast i : Ev i -> Ev (try_rebroadcast c i).
Proof. apply Ev_quiet, quiet_try_rebroadcast. Qed.
Lemma Ev_fail i e : Ev i -> Ev (fail i e).
Proof. apply Ev_view; try reflexivity. exact (same_votes_refl i). Qed.

Lemma Ev_bcast i i' r p v t j :
  log_ok (i_out i) -> same_votes i i' -> 0 <= r -> votable p -> guardz (EV i) k r p v ->
  admj (EV i) r p v j -> (v <> [] -> evid (EV i) v) ->
  (forall E, incl (EV i) E -> In (voteS k r p v) E -> EvI E i') ->
  Ev (broadcast i' r p v t j).
Proof.
  intros L [Ho Hl] Hr Hvt Hg Haj Hev HI.
  assert (HEV : EV (broadcast i' r p v t j) = voteS k r p v :: EV i).
  { unfold EV, broadcast. cbn [emit i_out]. change (ovotes (OBroadcast r p v j t :: i_out i')) with (voteS k r p v :: ovotes (i_out i')).
    rewrite Ho. reflexivity. }
  split.
  - rewrite HEV. assert (HE : EvI (voteS k r p v :: EV i) i').
    { apply HI; [intros x Hx; right; exact Hx|left; reflexivity]. }
    destruct HE as [A B]. split; [eapply EvC_view; [|exact A]; reflexivity|eapply EvP_view; [|exact B]; reflexivity].
  - unfold broadcast. cbn [emit i_out log_ok]. rewrite Ho. split; [exact Hg|split; [exact Hr|split; [exact Hvt|split; [exact Haj|split; [exact Hev|apply Hl; exact L]]]]].
Qed.
Lemma Ev_upd i i' : log_ok (i_out i) -> same_votes i i' -> EvI (EV i) i' -> Ev i'.
Proof.
  intros L [Hv Hl] HI. assert (HE : EV i' = EV i) by (unfold EV; rewrite Hv; reflexivity).
  split; [rewrite HE; exact HI|apply Hl; exact L].
Qed.

Lemma prefix_of_input_cand p v : In p (all_prefixes v) -> p <> [] /\ exists rest, v = p ++ rest.
Proof.
  intros H. apply In_all_prefixes in H. destruct H as (n0 & Hn & ->). split.
  - destruct v; cbn in *; [lia|]. destruct n0; [lia|discriminate].
  - exists (skipn n0 v). symmetry. apply firstn_skipn.
Qed.

Lemma QE_receive E r p q sender v : QE E r p q -> 0 <= sender < Z.of_nat (nmem c) -> In (voteS sender r p v) E ->
  QE E r p (q_receive c q sender v).
Proof.
  intros [A B C] Hs Hv. unfold q_receive. destruct (memZ sender (q_senders q)); [constructor; assumption|].
  unfold q_receive_inner. constructor; cbn [q_senders q_support q_spower q_just].
  - intros x Hx. apply in_app_or in Hx. destruct Hx as [Hx|[<-|[]]]; [apply A; exact Hx|exact Hs].
  - intros s Hs' x Hx. apply sup_set_In in Hs'. destruct Hs' as [->|Hs']; [|apply (B s Hs' x Hx)].
    cbn [s_signers s_chain] in *. apply in_app_or in Hx. destruct Hx as [Hx|[<-|[]]]; [|exact Hv].
    destruct (sup_find (q_support q) v) as [s0|] eqn:Ef; [|destruct Hx].
    destruct (sup_find_In _ _ _ Ef) as [Hin Hc]. rewrite <- Hc. apply (B s0 Hin x Hx).
  - rewrite C. symmetry. apply (sumf_snoc (power_of c)).
Qed.
Lemma QE_receive_just E r p q v j : QE E r p q -> QE E r p (q_receive_just q v j).
Proof. intros [A B C]. unfold q_receive_just. destruct (existsb _ _); constructor; assumption. Qed.

Lemma Ev_round_nonneg i : Ev i -> 0 <= i_round i.
Proof. intros [[_ (_ & _ & _ & H)] _]. exact H. Qed.

Lemma Ev_begin_prepare i j : Ev i -> i_value i = i_proposal i -> guardz (EV i) k (i_round i) PREPARE (i_value i) ->
  admj (EV i) (i_round i) PREPARE (i_value i) j -> Ev (begin_prepare c i j).
Proof.
  intros HE Hv Hg Haj. pose proof HE as [[HC HP] _].
  set (i2 := reset_rebroadcast (alarm_after c (set_progress i (i_round i) PREPARE) false)).
  change (Ev (broadcast i2 (i_round i) PREPARE (i_value i) false j)).
  apply (Ev_bcast i i2); [apply HE|exact (same_votes_refl i)|apply Ev_round_nonneg; exact HE|exact I|exact Hg|exact Haj|intros _; rewrite Hv; apply (ec_pev _ _ _ HC)|].
  intros E Hi Hin. split.
  - apply (EvC_keep E i i2); [reflexivity|exact Hi|exact HC].
  - apply EvP_intro; [apply HP|]. cbn. rewrite <- Hv. exact Hin.
Qed.

Lemma find_sq_for_inv q v sg : q_find_sq_for c q v = FsqSome sg -> exists s, sup_find (q_support q) v = Some s /\ s_sq s = true.
Proof.
  unfold q_find_sq_for. destruct (sup_find (q_support q) v) as [s|]; [|discriminate]. destruct (s_sq s) eqn:E; [|discriminate].
  intros _. exists s. split; [reflexivity|exact E].
Qed.
Lemma AllQ_prep i r : AllQ c i -> QS c (r_prep (get_round i r)). Proof. intros H. apply H. Qed.
Lemma AllQ_comm i r : AllQ c i -> QS c (r_comm (get_round i r)). Proof. intros H. apply H. Qed.
Lemma built_backed E r p q v sg : QS c q -> QE E r p q -> 0 <= r -> q_find_sq_for c q v = FsqSome sg -> backed E (build_just r p v sg).
Proof.
  intros HQ HE Hr Hf. destruct (find_sq_for_inv _ _ _ Hf) as (s & Hs & Hsq). split; [exact Hr|]. exact (local_SQ E r p q v s HQ HE Hs Hsq).
Qed.
Lemma match_ne {A} (l : list A) (P Q : Prop) : l <> [] -> match l with [] => P | _ => Q end -> Q.
Proof. destruct l; [congruence|auto]. Qed.
Lemma jprev_prepare_SQ E r v j : jprev E r v j -> j_phase j = PREPARE -> SQz E (r - 1) PREPARE v /\ 0 <= r - 1.
Proof. intros ((H0 & Hb) & Hr & [[Hp Hv]|[Hp Hv]]) Hph; [|congruence]. rewrite Hr, Hp, Hv in Hb. rewrite Hr in H0. split; assumption. Qed.

Lemma jprev_jsame E r v j : jprev E (r + 1) v j -> j_phase j = PREPARE -> jsame E r v j.
Proof.
  intros (Hb & Hr & [[Hp Hv]|[Hp Hv]]) Hph; [|congruence]. split; [exact Hb|]. split; [lia|]. split; assumption.
Qed.

Lemma Ev_begin_commit i : Ev i -> i_phase i = PREPARE -> AllQ c i ->
  (i_value i = i_proposal i \/
   (i_value i = [] /\ exists t x, x <> i_proposal i /\ In (voteS t (i_round i) PREPARE x) (EV i) /\ justifiedz (EV i) (i_round i) x)) ->
  Ev (begin_commit c i).
Proof.
  intros HE Hph HA Hval. pose proof HE as [[HC HP] _]. destruct HP as (Hown & _ & _ & Hr0). specialize (Hown Hph).
  pose proof (ec_rounds _ _ _ HC (i_round i)) as Rcur. pose proof (ec_rounds _ _ _ HC (i_round i + 1)) as Rnxt.
  fold (get_round i (i_round i)) in Rcur. fold (get_round i (i_round i + 1)) in Rnxt.
  set (i2 := enter c i (i_round i) COMMIT false).
  assert (HI2 : forall E, incl (EV i) E -> EvI E i2).
  { intros E Hi. split; [apply (EvC_keep E i i2); [reflexivity|exact Hi|exact HC]|apply EvP_intro; [exact Hr0|exact I]]. }
  assert (Hi2 : Ev i2) by (apply (Ev_upd i i2); [apply HE|exact (same_votes_refl i)|apply HI2, incl_refl]).
  assert (Hfin : forall v j', guardz (EV i) k (i_round i) COMMIT v -> admj (EV i) (i_round i) COMMIT v j' -> (v <> [] -> v = i_proposal i) ->
                 Ev (emit i2 (OBroadcast (i_round i) COMMIT v j' false))).
  { intros v j' Hg Haj Hvp. apply (Ev_bcast i i2); [apply HE|exact (same_votes_refl i)|exact Hr0|exact I|exact Hg|exact Haj|intros Hne; rewrite (Hvp Hne); apply (ec_pev _ _ _ HC)|].
    intros E Hi _. apply HI2. exact Hi. }
  apply begin_commit_cases; fold i2; try (intros; apply Ev_fail; exact Hi2).
  - intros Ev0. apply Hfin; [|left; split; reflexivity|intros H; congruence].
    destruct Hval as [Hval|(_ & t & y & Hy & Hin & Hj)]; [exfalso; apply (ec_prop _ _ _ HC); congruence|].
    apply (guardz_commit_bot (EV i) (i_round i) (i_proposal i) t y); [apply (ec_prop _ _ _ HC)|exact Hown|exact Hy|exact Hin|exact Hj].
  - intros j Hne Hjp Hsrc. destruct Hval as [Hval|(Hval & _)]; [|congruence].
    assert (Hjs : jsame (EV i) (i_round i) (i_value i) j).
    { destruct Hsrc as [(sg & Hf & ->)|(_ & [Hg|[Hg|Hg]])].
      - split; [|repeat split]. apply (built_backed _ _ _ _ _ _ (AllQ_prep _ _ HA) (re_prep _ _ _ Rcur) Hr0 Hf).
      - destruct (q_get_just_inv _ _ _ _ Hg) as (e & Hin & <- & _ & He). apply (match_ne _ _ _ Hne) in He. rewrite <- He.
        apply (re_cjust _ _ _ Rcur e Hin).
      - destruct (q_get_just_inv _ _ _ _ Hg) as (e & Hin & <- & Hp & He). apply (match_ne _ _ _ Hne) in He. rewrite <- He.
        apply jprev_jsame; [apply (re_pjust _ _ _ Rnxt e Hin)|exact Hp].
      - destruct (c_get_just_inv _ _ _ _ Hg) as (cv & Hin & <- & Hp & He). apply (match_ne _ _ _ Hne) in He. rewrite <- He.
        apply jprev_jsame; [apply (re_conv _ _ _ Rnxt cv Hin)|exact Hp]. }
    apply Hfin; [|right; split; [exact Hne|exists j; split; [reflexivity|exact Hjs]]|intros _; exact Hval].
    destruct Hjs as ((_ & Hb) & Hjr & Hjp' & Hjv). rewrite Hjr, Hjp', Hjv in Hb.
    apply guardz_commit; [exact Hne|rewrite Hval; exact Hown|exact Hb].
Qed.

Lemma EvC_upd E rho rho' i i' :
  i_rounds i' = i_rounds i -> i_decision i' = i_decision i -> Cands E rho (i_cands i') -> i_input i' = i_input i -> i_proposal i' <> [] ->
  evid E (i_proposal i') -> EvC E rho' i -> EvC E rho i'.
Proof. intros E1 E2 HC E4 HP HV [A B _ D _ _]. constructor; rewrite ?E1, ?E2, ?E4; assumption. Qed.

Lemma Ev_begin_decide i round : Ev i -> i_value i <> [] -> 0 <= round -> SQz (EV i) round COMMIT (i_value i) -> Ev (begin_decide c i round).
Proof.
  intros HE Hne Hrd Hsq. pose proof HE as [[HC HP] L]. destruct HP as (_ & _ & _ & Hr0).
  set (i2 := reset_rebroadcast (set_progress i (i_round i) DECIDE)).
  assert (HI2 : forall E, incl (EV i) E -> EvI E i2).
  { intros E Hi. split; [apply (EvC_keep E i i2); [reflexivity|exact Hi|exact HC]|apply EvP_intro; [exact Hr0|exact I]]. }
  apply begin_decide_cases; fold i2.
  - intros sg _. apply (Ev_bcast i i2); [exact L|exact (same_votes_refl i)|lia|exact I|apply (guardz_decide _ _ round); assumption| | |].
    + split; [reflexivity|]. split; [exact Hne|]. eexists. split; [reflexivity|]. split; [split; [exact Hrd|exact Hsq]|split; reflexivity].
    + intros _. right. exists round, COMMIT. split; [exact Hrd|exact Hsq].
    + intros E Hi _. apply HI2. exact Hi.
  - intros _. apply Ev_fail. apply (Ev_upd i i2); [exact L|exact (same_votes_refl i)|apply HI2; apply incl_refl].
Qed.

Lemma Ev_skip_to_decide i v j : Ev i -> v <> [] -> backed (EV i) j -> j_phase j = COMMIT -> j_value j = v -> Ev (skip_to_decide i v (Some j)).
Proof.
  intros HE Hne Hjb Hjp Hjv. pose proof Hjb as [Hr Hsq]. rewrite Hjp, Hjv in Hsq. set (r := j_round j) in *.
  pose proof HE as [[HC HP] L]. destruct HP as (_ & _ & _ & Hr0).
  unfold skip_to_decide. cbv zeta.
  set (i2 := reset_rebroadcast (set_pv (set_progress i (i_round i) DECIDE) v v)).
  assert (Hev : evid (EV i) v) by (right; exists r, COMMIT; split; [exact Hr|exact Hsq]).
  apply (Ev_bcast i i2); [exact L|exact (same_votes_refl i)|lia|exact I|apply (guardz_decide _ _ r); assumption| |intros _; exact Hev|].
  { split; [reflexivity|]. split; [exact Hne|]. exists j. split; [reflexivity|]. split; [exact Hjb|split; assumption]. }
  intros E Hi _. split.
  - apply (EvC_upd E (i_round i) (i_round i) i i2); try reflexivity; [|exact Hne|eapply evid_mono; [exact Hi|exact Hev]|apply (EvC_mono (EV i) E (i_round i) (i_round i) i Hi); [lia|exact HC]].
    apply (Cands_mono (EV i) E (i_round i) (i_round i)); [exact Hi|lia|apply HC].
  - apply EvP_intro; [exact Hr0|exact I].
Qed.

Lemma Ev_begin_converge i j : EvC (EV i) (i_round i) i -> log_ok (i_out i) -> 1 <= i_round i ->
  jprev (EV i) (i_round i) (i_proposal i) j -> Ev (begin_converge c i j).
Proof.
  intros HC L Hr Hj. apply begin_converge_cases; [intros Hn; exfalso; apply Hn; apply Hj|intros _].
  set (rs := get_round i (i_round i)).
  set (i3 := set_round_state (enter c i (i_round i) CONVERGE false) (i_round i) (mkR (c_set_self (r_conv rs) (i_proposal i) j) (r_prep rs) (r_comm rs))).
  apply (Ev_bcast i i3); [exact L|exact (same_votes_refl i)|lia|exact I|apply (guardz_converge _ _ _ j); [exact Hr|apply (ec_prop _ _ _ HC)|exact Hj]|split; [exact Hr|split; [apply (ec_prop _ _ _ HC)|exists j; split; [reflexivity|exact Hj]]]|intros _; apply (ec_pev _ _ _ HC)|].
  intros E Hi _. split; [|apply EvP_intro; [cbn; lia|exact Hr]].
  pose proof (EvC_mono (EV i) E (i_round i) (i_round i) i Hi ltac:(lia) HC) as [A B C D F G].
  constructor; try assumption. intros r. change (i_rounds i3) with (rset (i_rounds i) (i_round i) (mkR (c_set_self (r_conv rs) (i_proposal i) j) (r_prep rs) (r_comm rs))).
  destruct (Z.eq_dec r (i_round i)) as [->|Hne]; [rewrite rget_rset_same|rewrite rget_rset_other by exact Hne; apply A].
  pose proof (A (i_round i)) as [R1 R2 R3 R4 R5 R6 R7]. change rs with (rget (i_rounds i) (i_round i)).
  constructor; cbn [r_prep r_comm r_conv]; try assumption.
  intros cv Hcv. unfold c_set_self in Hcv. destruct (cv_find _ _); [apply R7; exact Hcv|]. cbn in Hcv.
  apply in_app_or in Hcv. destruct Hcv as [Hcv|[<-|[]]]; [apply R7; exact Hcv|]. cbn. split; [eapply jprev_mono; eauto|exact F].
Qed.

(* whichever of the four places the justification comes from, it is a COMMIT quorum for bottom of this round or the
   PREPARE quorum stored with a COMMIT for the own proposal *)
Lemma Ev_begin_next_round i : EvC (EV i) (i_round i + 1) i -> log_ok (i_out i) -> 0 <= i_round i -> AllQ c i -> i_phase i = COMMIT ->
  Ev (begin_next_round c i).
Proof.
  intros HC L Hr HA Hph.
  set (i1 := set_progress i (i_round i + 1) (i_phase i)).
  assert (C1 : EvC (EV i1) (i_round i1) i1) by (apply (EvC_view _ _ i); [reflexivity|exact HC]).
  assert (Hfail : forall e, Ev (fail i1 e)).
  { intros e. apply Ev_fail. apply (Ev_upd i i1); [exact L|exact (same_votes_refl i)|]. split; [exact C1|].
    apply EvP_intro; [cbn; lia|]. change (i_phase i1) with (i_phase i). rewrite Hph. exact I. }
  pose proof (ec_rounds _ _ _ HC (i_round i)) as Rprev. pose proof (ec_rounds _ _ _ HC (i_round i + 1)) as Rcur.
  fold (get_round i (i_round i)) in Rprev. fold (get_round i (i_round i + 1)) in Rcur.
  apply begin_next_round_cases; fold i1; try (intros; apply Hfail).
  intros j Hsrc. apply Ev_begin_converge; [exact C1|exact L|cbn; lia|]. change (i_round i1) with (i_round i + 1). change (i_proposal i1) with (i_proposal i).
  assert (Hbot : backed (EV i) j -> j_round j = i_round i -> j_phase j = COMMIT -> j_value j = [] -> jprev (EV i) (i_round i + 1) (i_proposal i) j).
  { intros Hb H1 H2 H3. split; [exact Hb|split; [lia|right; split; assumption]]. }
  destruct Hsrc as [(sg & Hf & ->)|(_ & [Hg|[Hg|(e & Hin & He & ->)]])].
  - apply Hbot; try reflexivity. apply (built_backed _ _ _ _ _ _ (AllQ_comm _ _ HA) (re_comm _ _ _ Rprev) Hr Hf).
  - destruct (q_get_just_inv _ _ _ _ Hg) as (e & Hin & <- & Hp & Hz). destruct (re_pjust _ _ _ Rcur e Hin) as (Hb & Hjr & _).
    apply Hbot; [exact Hb|lia|exact Hp|exact Hz].
  - destruct (c_get_just_inv _ _ _ _ Hg) as (cv & Hin & <- & Hp & Hz). destruct (re_conv _ _ _ Rcur cv Hin) as [(Hb & Hjr & _) _].
    apply Hbot; [exact Hb|lia|exact Hp|exact Hz].
  - apply chain_eqb_eq in He. destruct (re_cjust _ _ _ Rprev e Hin) as [(Hb & Hjr & Hjp & Hjv) _].
    split; [exact Hb|split; [lia|left; split; [exact Hjp|congruence]]].
Qed.

Definition cand_ok (E : list Spec.vote) (rho : Z) (v : chain) : Prop :=
  v <> [] /\ (Spec.is_prefix v kin \/ exists r1, 0 <= r1 < rho /\ SQz E r1 PREPARE v).
Lemma qlp_facts i : i_input i = kin -> kin <> [] ->
  qlp i <> [] /\ Spec.is_prefix (qlp i) kin /\ forall E rho x, In x (all_prefixes (qlp i)) -> cand_ok E rho x.
Proof.
  intros Hin Hk0. unfold qlp. rewrite Hin. destruct (q_longest_prefix_spec (i_quality i) kin) as (Hp & _ & _ & Hl). cbv zeta in *. specialize (Hl Hk0).
  set (p := q_longest_prefix (i_quality i) kin) in *. assert (Hpne : p <> []) by (destruct p; [cbn in Hl; lia|discriminate]).
  destruct Hp as (t & Ht). split; [exact Hpne|]. split; [split; [exact Hpne|exists t; exact Ht]|].
  intros E rho x Hx. destruct (prefix_of_input_cand _ _ Hx) as (Hxne & rest & Hr). split; [exact Hxne|left]. split; [exact Hxne|].
  exists (rest ++ t). rewrite Ht, Hr, app_assoc. reflexivity.
Qed.

Lemma cand_ok_evid E rho v : cand_ok E rho v -> evid E v.
Proof. intros [_ [P|(r1 & R1 & S1)]]; [left; exact P|right; exists r1, PREPARE; split; [lia|exact S1]]. Qed.
Lemma Cands_ext E rho l l' : Cands E rho l -> (forall x, In x l' -> In x l \/ cand_ok E rho x) -> Cands E rho l'.
Proof. intros H U x Hx. destruct (U x Hx) as [Hl|Hn]; [apply H; exact Hl|exact Hn]. Qed.

Lemma Ev_repropose i l p w : Ev i -> i_phase i <> PREPARE -> Cands (EV i) (i_round i) l -> p <> [] -> evid (EV i) p ->
  Ev (set_pv (set_cands i l) p w).
Proof.
  intros [[HC HP] L] Hph Hl Hp Hev. apply (Ev_upd i); [exact L|exact (same_votes_refl i)|]. split.
  - apply (EvC_upd (EV i) (i_round i) (i_round i) i); try reflexivity; assumption.
  - destruct HP as (A & B). split; [intros H; contradiction|exact B].
Qed.

Lemma Ev_skip_to_round i round v j : EvC (EV i) (i_round i) i -> log_ok (i_out i) -> 0 <= i_round i < round -> v <> [] ->
  jprev (EV i) round v j -> Ev (skip_to_round c i round v j).
Proof.
  intros HC L Hr Hv Hj. destruct (ec_input _ _ _ HC) as [Hin Hk0]. destruct (qlp_facts i Hin Hk0) as (Hpne & Hpp & Hall).
  destruct (skip_to_round_spec c i round v j) as (l & p & w & -> & _ & Hcase).
  set (i3 := set_pv (set_cands (set_progress i round (i_phase i)) l) p w).
  assert (Hold : Cands (EV i) round (i_cands i)) by (apply (Cands_mono (EV i) (EV i) (i_round i) round); [apply incl_refl|lia|apply HC]).
  assert (H3 : Cands (EV i) round l /\ p <> [] /\ evid (EV i) p /\ (j_phase j = PREPARE -> p = v)).
  { destruct Hcase as [(Hp & Ep & _ & U)|[(Hp & _ & Ep & _ & U)|(Hp & _ & Ep & El)]]; subst p.
    - destruct (jprev_prepare_SQ _ _ _ _ Hj Hp) as [Hsq H0].
      assert (Hcv : cand_ok (EV i) round v) by (split; [exact Hv|right; exists (round - 1); split; [lia|exact Hsq]]).
      split; [|split; [exact Hv|split; [exact (cand_ok_evid _ _ _ Hcv)|reflexivity]]].
      apply (Cands_ext _ _ _ _ Hold). intros x Hx. destruct (U x Hx) as [[H|[_ H]]| ->]; [left; exact H|right; apply Hall; exact H|right; exact Hcv].
    - split; [|split; [exact Hpne|split; [left; exact Hpp|congruence]]].
      apply (Cands_ext _ _ _ _ Hold). intros x Hx. destruct (U x Hx) as [H|H]; [left; exact H|right; apply Hall; exact H].
    - subst l. split; [exact Hold|split; [apply (ec_prop _ _ _ HC)|split; [apply (ec_pev _ _ _ HC)|congruence]]]. }
  destruct H3 as (F3 & G3 & V3 & P3).
  apply Ev_begin_converge; [apply (EvC_upd (EV i) round (i_round i) i i3); try reflexivity; assumption|exact L|cbn; lia|].
  change (jprev (EV i) round p j).
  destruct Hj as (Hb & Hjr & [[Hp Hjv]|[Hp Hjv]]); split; try assumption; split; try assumption; [left|right]; split; try assumption.
  rewrite (P3 Hp). exact Hjv.
Qed.

Lemma Ev_try_quality i : Ev i -> i_phase i = QUALITY -> Ev (try_quality c i).
Proof.
  intros HE Hph. pose proof HE as [[HC HP] L]. destruct HP as (_ & Hq & _ & Hr0). specialize (Hq Hph).
  destruct (ec_input _ _ _ HC) as [Hin Hk0]. destruct (qlp_facts i Hin Hk0) as (Hpne & Hpp & Hall).
  apply try_quality_cases; [intros; exact HE|intros _]. destruct (settle_nf i) as (l & _ & _ & -> & U).
  apply Ev_begin_prepare; [apply Ev_repropose; [exact HE|rewrite Hph; discriminate| |exact Hpne|left; exact Hpp]|reflexivity| |].
  - apply (Cands_ext _ _ _ _ (ec_cands _ _ _ HC)). intros x Hx. destruct (U x Hx) as [H|H]; [left; exact H|right; apply Hall; exact H].
  - change (guardz (EV i) k (i_round i) PREPARE (qlp i)). rewrite Hq. apply guardz_prepare0; assumption.
  - left. split; [exact Hq|reflexivity].
Qed.

Lemma Ev_try_converge i : Ev i -> i_phase i = CONVERGE -> Ev (try_converge c i).
Proof.
  intros HE Hph. pose proof HE as [[HC HP] L]. destruct HP as (_ & _ & Hc1 & Hr0). specialize (Hc1 Hph).
  apply try_converge_cases; [intros; exact HE|intros; apply Ev_try_rebroadcast; exact HE|intros; apply Ev_fail; exact HE|].
  intros w l Eb _ _ U. destruct (c_find_best_In _ _ _ Eb) as [Hin Hval].
  pose proof (ec_rounds _ _ _ HC (i_round i)) as Rcur. fold (get_round i (i_round i)) in Rcur.
  destruct (re_conv _ _ _ Rcur w Hin) as [Hj Hne].
  (* the value passed the filter: it was a candidate, or comes with a PREPARE quorum of the round before *)
  assert (Hcw : cand_ok (EV i) (i_round i) (cv_chain w)).
  { unfold conv_valid in Hval. apply orb_prop in Hval. destruct Hval as [Hv|Hv]; [apply (ec_cands _ _ _ HC); apply is_candidate_In; exact Hv|].
    apply andb_prop in Hv. destruct Hv as [Hv _]. apply phase_eqb_true in Hv. destruct (jprev_prepare_SQ _ _ _ _ Hj Hv) as [Hsq H0].
    split; [exact Hne|right; exists (i_round i - 1); split; [lia|exact Hsq]]. }
  apply Ev_begin_prepare; [apply Ev_repropose; [exact HE|rewrite Hph; discriminate| |exact Hne|exact (cand_ok_evid _ _ _ Hcw)]|reflexivity| |].
  - apply (Cands_ext _ _ _ _ (ec_cands _ _ _ HC)). intros x Hx. destruct (U x Hx) as [H| ->]; [left; exact H|right; exact Hcw].
  - change (guardz (EV i) k (i_round i) PREPARE (cv_chain w)). apply (guardz_prepareS _ _ _ (cv_just w)); [exact Hc1|exact Hne|exact Hj|intros _; apply Hcw].
  - right. split; [exact Hc1|exists (cv_just w); split; [reflexivity|exact Hj]].
Qed.

Lemma sup_find_split l k0 : chains_distinct l ->
  sup_total l = (match sup_find l k0 with Some s => s_power s | None => 0 end) +
                sumf s_power (filter (fun s => negb (chain_eqb (s_chain s) k0)) l).
Proof.
  induction l as [|a l IH]; intros Hd; [reflexivity|]. destruct Hd as [Hd1 Hd2]. specialize (IH Hd2).
  unfold sup_total in *. cbn [sup_find filter fold_right]. destruct (chain_eqb (s_chain a) k0) eqn:Ea; cbn [negb].
  - apply chain_eqb_eq in Ea. destruct (sup_find l k0) as [t|] eqn:Ef; [|lia].
    destruct (sup_find_In _ _ _ Ef) as [Hin Hc]. exfalso. apply (Hd1 t Hin). congruence.
  - cbn [sumf fold_right]. fold (sumf s_power (filter (fun s => negb (chain_eqb (s_chain s) k0)) l)). lia.
Qed.

(* no quorum for k0 although enough have voted: a justified vote for another value was received *)
Lemma other_prepare E r q k0 :
  QS c q -> Cov q -> QE E r PREPARE q -> (forall s, In s (q_support q) -> s_signers s <> [] -> justifiedz E r (s_chain s)) ->
  q_has_sq q k0 = false -> (q_could_reach c q k0 false = false \/ q_from_strong c q = true) ->
  exists t x, x <> k0 /\ In (voteS t r PREPARE x) E /\ justifiedz E r x.
Proof.
  intros HQ HCov HQE Hjd Hsq Hwhy. destruct (committee_wf_ok c Hwf) as (Ht & Hpow & Hsum).
  assert (Hnn : forall s, In s (q_support q) -> 0 <= s_power s).
  { intros s Hs. rewrite (sw_power c q s (qs_sup c q HQ s Hs)). apply sum_power_nonneg; assumption. }
  assert (Hle : q_spower q <= c_total c).
  { rewrite (qe_spower _ _ _ _ HQE). apply Hsum. apply (qs_nodup c q HQ). }
  unfold Cov in HCov. rewrite (sup_find_split _ k0 (qs_chains c q HQ)) in HCov.
  set (others := filter (fun s => negb (chain_eqb (s_chain s) k0)) (q_support q)) in *.
  assert (Ho : 0 <= sumf s_power others).
  { apply sumf_nonneg. intros s Hs. apply filter_In in Hs. apply Hnn. apply Hs. }
  assert (Hpos : 0 < sumf s_power others).
  { unfold q_could_reach, q_from_strong, q_has_sq in *. destruct (sup_find (q_support q) k0) as [s|] eqn:Ef.
    - destruct (sup_find_In _ _ _ Ef) as [Hin _]. pose proof (Hnn s Hin) as Hs.
      rewrite (sw_sq c q s (qs_sup c q HQ s Hin)) in Hsq. apply not_strong in Hsq; [|lia].
      destruct Hwhy as [Hcr|Hfs]; [|apply (strong_iff _ (c_total c)) in Hfs; lia].
      pose proof (could_reach_sound (s_power s) true (q_spower q) (c_total c) ltac:(lia) ltac:(lia) Hle Hcr (c_total c - q_spower q) ltac:(lia)) as H.
      cbv iota in H. apply not_strong in H; lia.
    - destruct Hwhy as [Hcr|Hfs]; [|apply (strong_iff _ (c_total c)) in Hfs; lia].
      pose proof (could_reach_sound 0 false (q_spower q) (c_total c) ltac:(lia) ltac:(lia) Hle Hcr (c_total c - q_spower q) ltac:(lia)) as H.
      cbv iota in H. apply not_strong in H; lia. }
  destruct (sumf_pos_exists s_power others Hpos) as (s' & Hin & Hp). apply filter_In in Hin. destruct Hin as [Hin Hne].
  destruct (s_signers s') as [|x l] eqn:Es.
  - exfalso. rewrite (sw_power c q s' (qs_sup c q HQ s' Hin)), Es in Hp. unfold sum_power in Hp. cbn in Hp. lia.
  - exists x, (s_chain s'). split; [|split].
    + intros Hc. rewrite Hc, (proj2 (chain_eqb_eq k0 k0) eq_refl) in Hne. discriminate Hne.
    + apply (qe_votes _ _ _ _ HQE s' Hin). rewrite Es. left. reflexivity.
    + apply Hjd; [exact Hin|rewrite Es; discriminate].
Qed.

Lemma Ev_set_value i v : Ev i -> Ev (set_pv i (i_proposal i) v).
Proof. apply Ev_view; try reflexivity. exact (same_votes_refl i). Qed.

Lemma Ev_try_prepare i : Ev i -> i_phase i = PREPARE -> AllQ c i -> Ev (try_prepare c i).
Proof.
  intros HE Hph HA. pose proof HE as [[HC HP] L].
  apply try_prepare_cases; [| |intros; exact HE|intros; apply Ev_try_rebroadcast; exact HE].
  - intros _. apply Ev_begin_commit; [apply Ev_set_value; exact HE|exact Hph|exact HA|left; reflexivity].
  - intros Ef Hwhy. apply Ev_begin_commit; [apply Ev_set_value; exact HE|exact Hph|exact HA|right; split; [reflexivity|]].
    change (EV (set_pv i (i_proposal i) [])) with (EV i). cbn [set_pv i_round i_proposal].
    pose proof (ec_rounds _ _ _ HC (i_round i)) as Rcur. fold (get_round i (i_round i)) in Rcur.
    apply (other_prepare (EV i) (i_round i) (r_prep (get_round i (i_round i))) (i_proposal i)); [apply HA|exact (re_pcov _ _ _ Rcur)|exact (re_prep _ _ _ Rcur)|exact (re_pjd _ _ _ Rcur)|exact Ef|].
    destruct Hwhy as [H|[_ H]]; [left|right]; exact H.
Qed.

Lemma Ev_try_commit i round sway : Ev i -> AllQ c i -> JI i -> 0 <= round -> Ev (try_commit c i round sway).
Proof.
  intros HE HA HJ Hr. pose proof HE as [[HC HP] L]. destruct HP as (_ & _ & _ & Hr0).
  pose proof (ec_rounds _ _ _ HC round) as Rr. fold (get_round i round) in Rr.
  assert (Hnext : i_phase i = COMMIT -> Ev (begin_next_round c i)).
  { intros Hc2. apply Ev_begin_next_round; [apply (EvC_mono (EV i) (EV i) (i_round i) (i_round i + 1)); [apply incl_refl|lia|exact HC]|exact L|exact Hr0|exact HA|exact Hc2]. }
  apply try_commit_cases; try (intros; apply Hnext; assumption); [intros; apply Ev_fail; exact HE| |intros; exact HE| |intros; apply Ev_try_rebroadcast; exact HE].
  - intros x v Ev0. apply Ev_begin_decide; [apply Ev_set_value; exact HE|discriminate|exact Hr|].
    change (EV (set_pv i (i_proposal i) (x :: v))) with (EV i). cbn [set_pv i_value].
    destruct (find_sq_value_support c _ _ (AllQ_comm _ _ HA) Ev0) as (s & Hs & Hsq).
    exact (local_SQ (EV i) round COMMIT _ (x :: v) s (AllQ_comm _ _ HA) (re_comm _ _ _ Rr) Hs Hsq).
  - (* swayed to a value seen in COMMIT: its stored justification is a PREPARE quorum of this round *)
    intros Hrd Hc2 l v _ _ Hv U. apply filter_In in Hv. destruct Hv as [Hv Hnz]. apply in_map_iff in Hv. destruct Hv as (s & Hsc & Hsin).
    assert (Hvne : v <> []) by (destruct v; [discriminate Hnz|discriminate]).
    destruct (rj_cj _ _ (HJ round) s Hsin ltac:(rewrite Hsc; exact Hvne)) as (e & Hein & Hee). fold (get_round i round) in Hein.
    rewrite Hsc in Hee. apply chain_eqb_eq in Hee.
    destruct (re_cjust _ _ _ Rr e Hein) as [((H0 & Hb) & Hjr & Hjp & Hjv) _]. rewrite Hjr, Hjp, Hjv, Hee in Hb.
    assert (Hcv : cand_ok (EV i) (i_round i + 1) v) by (split; [exact Hvne|right; exists round; split; [lia|exact Hb]]).
    apply Ev_begin_next_round; [|exact L|exact Hr0|apply (AllQ_rd c i); [reflexivity|exact HA]|exact Hc2].
    apply (EvC_upd (EV i) (i_round i + 1) (i_round i) i); try reflexivity; [|exact Hvne|exact (cand_ok_evid _ _ _ Hcv)|exact HC].
    apply (Cands_ext _ _ (i_cands i)); [apply (Cands_mono (EV i) (EV i) (i_round i)); [apply incl_refl|lia|apply HC]|].
    intros x Hx. destruct (U x Hx) as [H| ->]; [left; exact H|right; exact Hcv].
Qed.

Lemma Ev_try_decide i : Ev i -> Ev (try_decide c i).
Proof.
  intros HE. pose proof HE as [[HC HP] L]. destruct HP as (_ & _ & _ & Hr0).
  apply try_decide_cases; [intros; apply Ev_fail; exact HE| |intros; apply Ev_fail; exact HE|intros; apply Ev_try_rebroadcast; exact HE].
  intros v sg _ _. apply (Ev_upd i); [exact L|exact (same_votes_refl i)|]. split; [|apply EvP_intro; [exact Hr0|exact I]].
  apply (EvC_view _ _ i); [reflexivity|exact HC].
Qed.

Lemma Ev_set_cands i l : (forall x, In x l -> In x (i_cands i) \/ In x (all_prefixes (qlp i))) -> Ev i -> Ev (set_cands i l).
Proof.
  intros U HE. pose proof HE as [[HC HP] L]. destruct (ec_input _ _ _ HC) as [Hin Hk0]. destruct (qlp_facts i Hin Hk0) as (_ & _ & Hall).
  apply (Ev_upd i); [exact L|exact (same_votes_refl i)|]. split; [|exact HP].
  apply (EvC_upd (EV i) (i_round i) (i_round i) i); try reflexivity; [|apply (ec_prop _ _ _ HC)|apply (ec_pev _ _ _ HC)|exact HC].
  apply (Cands_ext _ _ _ _ (ec_cands _ _ _ HC)). intros x Hx. destruct (U x Hx) as [H|H]; [left; exact H|right; apply Hall; exact H].
Qed.

Lemma Ev_try_current_phase i sway : Ev i -> AllQ c i -> JI i -> Ev (try_current_phase c i sway).
Proof.
  intros HE HA HJ. apply try_current_phase_cases; intros Hph.
  - apply Ev_fail. exact HE.
  - apply Ev_try_quality; assumption.
  - apply Ev_try_converge; assumption.
  - apply Ev_try_prepare; assumption.
  - apply Ev_try_commit; [exact HE|exact HA|exact HJ|apply Ev_round_nonneg; exact HE].
  - apply Ev_try_decide. exact HE.
  - exact HE.
Qed.

(* what the network guarantees about a delivered message: the vote it carries is in the global set (honest votes were cast
   by their senders, Byzantine ones are recorded when injected), and the justification has the shape validation enforces
   and verifies against the global set *)
Definition adm (m : msg) : Prop :=
  0 <= m_sender m < Z.of_nat (nmem c) /\ 0 <= m_round m /\
  In (voteS (m_sender m) (m_round m) (m_phase m) (m_value m)) E0 /\
  match m_phase m with
  | QUALITY => m_round m = 0 /\ m_value m <> []
  | CONVERGE => 1 <= m_round m /\ m_value m <> [] /\ exists j, m_just m = Some j /\ jprev E0 (m_round m) (m_value m) j
  | PREPARE => (m_round m = 0 /\ m_just m = None) \/ (1 <= m_round m /\ exists j, m_just m = Some j /\ jprev E0 (m_round m) (m_value m) j)
  | COMMIT => (m_value m = [] /\ m_just m = None) \/ (m_value m <> [] /\ exists j, m_just m = Some j /\ jsame E0 (m_round m) (m_value m) j)
  | DECIDE => m_round m = 0 /\ m_value m <> [] /\ exists j, m_just m = Some j /\ backed E0 j /\ j_phase j = COMMIT /\ j_value j = m_value m
  | _ => False
  end.
Definition adm_ev (e : event) : Prop := match e with EvStart _ => False | EvDeliver _ m _ => adm m | EvAlarm _ _ => True end.

Lemma adm_wfmb m : adm m -> wfmb m = true.
Proof.
  intros (_ & _ & _ & H). unfold wfmb. destruct (m_phase m); try contradiction; try reflexivity.
  - destruct H as (H1 & H2 & j & -> & (_ & Hr & _)). destruct (m_value m); [congruence|]. cbn. apply Z.eqb_eq. exact Hr.
  - destruct H as [(H1 & ->)|(H1 & j & -> & (_ & Hr & _))]; [reflexivity|apply Z.eqb_eq; exact Hr].
  - destruct H as [(-> & _)|(H1 & j & -> & (_ & Hr & _))]; [reflexivity|]. destruct (m_value m); [congruence|]. cbn. apply Z.eqb_eq. exact Hr.
  - destruct H as (-> & _). reflexivity.
Qed.
Lemma adm_ev_okb e : adm_ev e -> ev_okb e = true.
Proof. destruct e; cbn; [contradiction|apply adm_wfmb|reflexivity]. Qed.

Lemma E0_incl i : incl E0 (EV i). Proof. unfold EV. apply incl_appr, incl_refl. Qed.

Lemma jprev_justified E r v j : 1 <= r -> jprev E r v j -> justifiedz E r v.
Proof.
  intros Hr Hj. unfold Refine.justifiedz, Spec.justified. right. exists (Z.to_nat (r - 1)). split; [apply to_nat_S; exact Hr|].
  destruct (jprev_cases _ _ _ _ Hj) as [H|H]; [left|right]; exact H.
Qed.

Lemma Ev_set_round_state i r s : Ev i -> RE (EV i) r s -> Ev (set_round_state i r s).
Proof.
  intros [[HC HP] L] Hs. apply (Ev_upd i); [exact L|exact (same_votes_refl i)|]. split; [|exact HP].
  destruct HC as [A B C D F]. constructor; try assumption. intros r'. cbn [i_rounds set_round_state].
  revert r'. exact (rget_rset_all (RE (EV i)) _ r s Hs A).
Qed.

Lemma q_receive_just_In q v j e : In e (q_just (q_receive_just q v j)) -> In e (q_just q) \/ e = (v, j).
Proof.
  unfold q_receive_just. destruct (existsb _ _); [left; assumption|]. cbn. intros H. apply in_app_or in H. destruct H as [H|[<-|[]]]; [left; exact H|right; reflexivity].
Qed.

Lemma RE_conv_receive E r rs sender v rank j cs : RE E r rs -> v <> [] -> jprev E r v j ->
  c_receive (r_conv rs) sender v rank (Some j) = Some cs -> RE E r (mkR cs (r_prep rs) (r_comm rs)).
Proof.
  intros [R1 R2 R3 R4 R5 R6 R7] Hv Hj Ecr. constructor; cbn [r_prep r_comm r_conv]; try assumption.
  unfold c_receive in Ecr. destruct v as [|x v']; [congruence|]. destruct (memZ _ _); [injection Ecr as <-; exact R7|].
  destruct (cv_find (cs_values (r_conv rs)) (x :: v')) as [old|] eqn:Ef.
  - destruct (rank_lt _ _); injection Ecr as <-; [|exact R7]. destruct (cv_find_In _ _ _ Ef) as [Hoin Hoc].
    intros cv Hcv. cbn in Hcv. destruct (cv_set_In _ _ _ Hcv) as [->|Hin]; [|apply R7; exact Hin].
    cbn. destruct (R7 old Hoin) as [Hj1 _]. rewrite Hoc in Hj1. split; [exact Hj1|discriminate].
  - injection Ecr as <-. intros cv Hcv. cbn in Hcv. apply in_app_or in Hcv. destruct Hcv as [Hcv|[<-|[]]]; [apply R7; exact Hcv|].
    cbn. split; [exact Hj|discriminate].
Qed.
Lemma RE_prep_receive E r rs sender v oj : RE E r rs -> 0 <= sender < Z.of_nat (nmem c) -> In (voteS sender r PREPARE v) E ->
  (r = 0 /\ oj = None) \/ (1 <= r /\ exists j, oj = Some j /\ jprev E r v j) ->
  RE E r (mkR (r_conv rs) (prep_update c (r_prep rs) sender v oj) (r_comm rs)).
Proof.
  intros [R1 R2 R3 R4 R5 R6 R7] Hs Hv Hsh. destruct (committee_wf_ok c Hwf) as (Ht & Hpow & Hsum).
  unfold prep_update. cbv zeta. constructor; cbn [r_prep r_comm r_conv]; try assumption.
  - destruct oj; [apply QE_receive_just|]; apply QE_receive; assumption.
  - destruct oj; [apply Cov_receive_just|]; apply (Cov_receive c); assumption.
  - destruct Hsh as [(H0 & ->)|(H1 & j & -> & Hjp)]; [rewrite q_receive_just_keep; exact R3|].
    intros e He'. apply q_receive_just_In in He'. rewrite q_receive_just_keep in He'.
    destruct He' as [He'| ->]; [apply R3; exact He'|exact Hjp].
  - intros s Hs' Hne.
    assert (Hs'' : In s (q_support (q_receive c (r_prep rs) sender v))).
    { destruct oj; [|exact Hs']. unfold q_receive_just in Hs'. destruct (existsb _ _); exact Hs'. }
    destruct (q_receive_support c _ _ _ _ Hs'') as [Hch|Hold]; [|apply R4; assumption]. rewrite Hch.
    destruct Hsh as [(H0 & _)|(H1 & j & _ & Hjp)]; [left; rewrite H0; reflexivity|apply (jprev_justified _ _ _ j); assumption].
Qed.
Lemma RE_comm_receive E r rs sender v oj : RE E r rs -> 0 <= sender < Z.of_nat (nmem c) -> In (voteS sender r COMMIT v) E ->
  (v = [] /\ oj = None) \/ (v <> [] /\ exists j, oj = Some j /\ jsame E r v j) ->
  RE E r (mkR (r_conv rs) (r_prep rs) (comm_update c (r_comm rs) sender v oj)).
Proof.
  intros [R1 R2 R3 R4 R5 R6 R7] Hs Hv Hsh. unfold comm_update. cbv zeta. constructor; cbn [r_prep r_comm r_conv]; try assumption.
  - destruct v; [destruct oj|destruct oj; [apply QE_receive_just|]]; apply QE_receive; assumption.
  - intros e He'. destruct Hsh as [(-> & ->)|(Hne & j & -> & Hjs)]; [rewrite q_receive_just_keep in He'; apply R6; exact He'|].
    destruct v as [|x v']; [congruence|]. apply q_receive_just_In in He'. rewrite q_receive_just_keep in He'.
    destruct He' as [He'| ->]; [apply R6; exact He'|split; [exact Hjs|discriminate]].
Qed.

Definition NoErr (e : ierr) : Prop := False.
Lemma Ev_absorb i m : Ev i -> adm m -> absorbs c Ev NoErr i m.
Proof.
  intros HE (Hsnd & Hmr & Hvote & Hshape). unfold absorbs. cbv zeta. pose proof HE as [[HC HP] L].
  assert (Hvote' : In (voteS (m_sender m) (m_round m) (m_phase m) (m_value m)) (EV i)) by (apply E0_incl; exact Hvote).
  pose proof (ec_rounds _ _ _ HC (m_round m)) as Rm. fold (get_round i (m_round m)) in Rm.
  destruct (m_phase m); try (intros []).
  - apply Ev_set_round_state; [|exact Rm]. apply (Ev_view i); try reflexivity; [exact (same_votes_refl i)|exact HE].
  - destruct (c_receive _ _ _ _ _) as [cs|] eqn:Ecr; [|intros []]. destruct Hshape as (Hr1 & Hvne & j & Ej & Hjp). rewrite Ej in Ecr.
    apply Ev_set_round_state; [exact HE|]. apply (RE_conv_receive _ _ _ _ _ _ _ _ Rm Hvne) in Ecr; [exact Ecr|].
    eapply jprev_mono; [apply E0_incl|exact Hjp].
  - apply Ev_set_round_state; [exact HE|]. apply RE_prep_receive; try assumption.
    destruct Hshape as [H|(H1 & j & Ej & Hjp)]; [left; exact H|right; split; [exact H1|exists j; split; [exact Ej|eapply jprev_mono; [apply E0_incl|exact Hjp]]]].
  - apply Ev_set_round_state; [exact HE|]. apply RE_comm_receive; try assumption.
    destruct Hshape as [H|(H1 & j & Ej & Hjs)]; [left; exact H|right; split; [exact H1|exists j; split; [exact Ej|eapply jsame_mono; [apply E0_incl|exact Hjs]]]].
  - destruct Hshape as (Hr0' & _). apply Ev_set_round_state; [|exact Rm].
    destruct HE as [[[A B C D F] HP'] L']. apply (Ev_upd i); [exact L'|exact (same_votes_refl i)|]. split; [|exact HP'].
    constructor; try assumption. cbn [i_decision set_decision]. apply QE_receive; [exact B|exact Hsnd|]. rewrite <- Hr0'. exact Hvote'.
Qed.

Lemma Ev_Post x : Ev x -> Post Ev NoErr x.
Proof. intros H. split; [intros _; exact H|intros e _ []]. Qed.

(* the vote-set invariant leans on the instance-level ones *)
Lemma Ev_StepInv : StepInvOn c (Full3 c) Ev NoErr adm adm_ev.
Proof.
  refine {| oke_msg := _;
            P_restart := _;
            P_quiet := Ev_quiet;
            P_cands := fun i l _ U _ HE => Ev_set_cands i l U HE;
            P_tcp := fun i sw HF HE _ => Ev_Post _ (Ev_try_current_phase i sw HE (proj1 (proj2 HF)) (proj2 (proj2 HF)));
            P_commit := fun i m sw Hm HF HE _ _ => Ev_Post _ (Ev_try_commit i (m_round m) sw HE (proj1 (proj2 HF)) (proj2 (proj2 HF)) (proj1 (proj2 Hm)));
            P_skipd := _; P_skip := _;
            P_absorb := fun i m _ HE _ Hm => Ev_absorb i m HE Hm |}.
  - intros now m sw H. exact H.
  - intros i now [].
  - intros i m (_ & _ & _ & Hshape) Ep _ HE _. rewrite Ep in Hshape. destruct Hshape as (_ & Hvne & j & Ej & Hjb & Hjp & Hjv). rewrite Ej.
    apply Ev_skip_to_decide; [exact HE|exact Hvne| |exact Hjp|exact Hjv]. eapply backed_mono; [apply E0_incl|exact Hjb].
  - intros i round w _ HE _ Hr _ _ Eb. apply Ev_Post.
    pose proof HE as [[HC HP] L]. destruct HP as (_ & _ & _ & Hr0). destruct (c_find_best_In _ _ _ Eb) as [Hin _].
    pose proof (ec_rounds _ _ _ HC round) as Rr. fold (get_round i round) in Rr. destruct (re_conv _ _ _ Rr w Hin) as [Hj Hne].
    apply Ev_skip_to_round; [exact HC|exact L|lia|exact Hne|exact Hj].
Qed.

Definition EvF (i : inst) : Prop := Full3 c i /\ Ev i.
Lemma EvF_StepInv : StepInv c EvF AnyErr adm adm_ev.
Proof.
  destruct (committee_wf_ok c Hwf) as (Ht & Hpow & Hsum).
  assert (H1 : StepInv c (Full3 c) AnyErr adm adm_ev).
  { apply (StepInv_weaken c _ _ _ _ _ _ adm _ adm_ev (fun _ H => H) (fun _ H => H) adm_wfmb adm_ev_okb (fun _ _ _ H => H) (Full3_StepInv c Ht Hsum)). }
  refine (StepInv_weaken c _ _ _ _ _ _ adm _ adm_ev (fun _ H => H) (fun _ H => or_introl H) (fun _ H => H) (fun _ H => H) (fun _ _ _ H => H)
            (StepInv_and c _ _ _ _ _ _ _ _ (fun i _ H => H) H1 Ev_StepInv)).
Qed.

(* the network keeps the state without the outputs of the previous step: E0 is all there is *)
Lemma Ev_clear i e : Inv i -> EvI E0 i -> Full3 c i -> i_err i = None -> adm_ev e -> Ev (step c (clear_out i) e).
Proof.
  intros HI [A B] HF He Hadm.
  assert (E0' : Ev (clear_out i)).
  { split; [|exact I]. split; [apply (EvC_view _ _ i); [reflexivity|exact A]|apply (EvP_view _ i); [reflexivity|exact B]]. }
  assert (F0 : Full3 c (clear_out i)) by (destruct HF as (P1 & P2 & P3); split; [exact P1|split; assumption]).
  apply (Post_all EvF), (Post_step c _ _ _ _ EvF_StepInv (clear_out i) e HI (ev_okb_wfe e (adm_ev_okb e Hadm)) Hadm (conj F0 E0') He).
Qed.

Lemma Ev_started now : kin <> [] -> Ev (step c (new_instance kin 0) (EvStart now)).
Proof.
  intros Hk0. assert (Hf1 : firstn 1 kin <> [] /\ Spec.is_prefix (firstn 1 kin) kin).
  { destruct kin as [|b r] eqn:Ek; [congruence|]. cbn. split; [discriminate|]. split; [discriminate|exists r; reflexivity]. }
  assert (Hkk : Spec.is_prefix kin kin) by (split; [exact Hk0|exists []; symmetry; apply app_nil_r]).
  split.
  - split.
    + constructor.
      * intros r. cbn. destruct r; apply RE_empty.
      * constructor; cbn; try (intros ? []); reflexivity.
      * intros v Hv. cbn in Hv. destruct Hv as [<-|[]]. destruct Hf1 as [A B]. split; [exact A|left; exact B].
      * split; [reflexivity|exact Hk0].
      * exact Hk0.
      * left. exact Hkk.
    + apply EvP_intro; [cbn; lia|reflexivity].
  - assert (Hout : exists t, i_out (step c (new_instance kin 0) (EvStart now)) = [OBroadcast 0 QUALITY kin None false; OAlarm t]) by (eexists; reflexivity).
    destruct Hout as (t & ->). cbn [log_ok].
    split; [apply (guardz_quality (ovotes [OAlarm t] ++ E0) kin); [exact Hk0|reflexivity]|split; [lia|split; [exact I|]]].
    split; [split; [reflexivity|split; [exact Hk0|reflexivity]]|split; [|exact I]].
    intros _. left. exact Hkk.
Qed.

End Node.
