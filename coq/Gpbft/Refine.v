(* Refinement, definitions: how the executable instance model (Layer N, Gpbft/Instance.v) is read as a participant of the
   vote-set protocol (Layer S, Gpbft/Spec.v).  A participant's broadcasts are its S-level votes; what it has received is
   evidence about the global vote set E.  RefineNode.v proves that every broadcast satisfies the S-level guard on E;
   RefineNet.v composes the participants into a network whose vote history is S-reachable, so that agreement and
   validity (SpecProofs) hold for networks of Layer-N instances. *)
From Coq Require Import ZArith List Bool Lia.
From F3 Require Import QuorumGen QuorumProofs Sets Instance InstanceDecide InstanceNoPanic.
From F3 Require SpecProofs.
Import ListNotations.
Open Scope Z_scope.

(* Not injective as they stand: phS sends INITIAL and TERMINATED to QUALITY, voteS sends negative indices and rounds to 0.
   They are injective on votable phases and non-negative arguments (RefineNet.voteS_inj), which is all that is voted. *)
Definition phS (p : phase) : Spec.phase :=
  match p with CONVERGE => Spec.CONVERGE | PREPARE => Spec.PREPARE | COMMIT => Spec.COMMIT | DECIDE => Spec.DECIDE | _ => Spec.QUALITY end.
Definition valS (v : chain) : Spec.val := match v with [] => None | _ => Some v end.
Definition voteS (k r : Z) (p : phase) (v : chain) : Spec.vote := Spec.V (Z.to_nat k) (Z.to_nat r) (phS p) (valS v).

Section Cfg.
Variable c : config.
Variable honest : nat -> bool.
Variable input : nat -> chain.

Definition nmem : nat := length (c_powers c).
Definition committee : list nat := seq 0 nmem.
Definition power (x : nat) : Z := power_of c (Z.of_nat x).

Definition SQz (E : list Spec.vote) (r : Z) (p : phase) (v : chain) : Prop :=
  Spec.SQ power committee honest E (Z.to_nat r) (phS p) (valS v).
Definition backed (E : list Spec.vote) (j : just) : Prop := 0 <= j_round j /\ SQz E (j_round j) (j_phase j) (j_value j).
Definition justifiedz (E : list Spec.vote) (r : Z) (v : chain) : Prop :=
  Spec.justified power committee honest E (Z.to_nat r) (valS v).
Definition guardz (E : list Spec.vote) (k r : Z) (p : phase) (v : chain) : Prop :=
  Spec.guard power committee honest input E (voteS k r p v).

Hypothesis Hwf : committee_wf c.

Lemma power_to_nat x : 0 <= x -> power (Z.to_nat x) = power_of c x.
Proof. intros H. unfold power. rewrite Z2Nat.id by exact H. reflexivity. Qed.

Lemma psum_map_to_nat l : (forall x, In x l -> 0 <= x) -> Spec.psum power (map Z.to_nat l) = sum_power c l.
Proof. intros H. apply (sumf_map_ext power (power_of c)). intros x Hx. apply power_to_nat. apply H. exact Hx. Qed.

Lemma total_is_total : Spec.total power committee = c_total c.
Proof.
  destruct Hwf as (_ & -> & _). rewrite <- sum_power_members. symmetry.
  apply (sumf_map_ext (power_of c) power). reflexivity.
Qed.

Lemma NoDup_map_to_nat l : NoDup l -> (forall x, In x l -> 0 <= x) -> NoDup (map Z.to_nat l).
Proof.
  induction 1 as [|x l Hx Hnd IH]; intros Hp; cbn; constructor.
  - intros Hin. apply in_map_iff in Hin. destruct Hin as (y & Ey & Hy). apply Hx.
    assert (y = x) by (apply Z2Nat.inj; [apply Hp; right; exact Hy|apply Hp; left; reflexivity|exact Ey]). subst. exact Hy.
  - apply IH. intros y Hy. apply Hp. right. exact Hy.
Qed.

Lemma signers_SQ E r p v (l : list Z) :
  NoDup l -> (forall x, In x l -> 0 <= x < Z.of_nat nmem) -> isStrongQuorum (sum_power c l) (c_total c) = true ->
  (forall x, In x l -> In (voteS x r p v) E) -> SQz E r p v.
Proof.
  intros Hnd Hr Hs Hv. exists (map Z.to_nat l). split.
  - split; [apply NoDup_map_to_nat; [exact Hnd|intros x Hx; apply Hr; exact Hx]|]. split.
    + intros y Hy. apply in_map_iff in Hy. destruct Hy as (x & <- & Hx). apply in_seq. specialize (Hr x Hx). lia.
    + rewrite psum_map_to_nat by (intros x Hx; apply Hr; exact Hx). rewrite total_is_total.
      destruct Hwf as (_ & _ & Hb). apply (strong_iff _ (c_total c)) in Hs; [lia|lia].
  - intros s Hs' _. apply in_map_iff in Hs'. destruct Hs' as (x & <- & Hx). exact (Hv x Hx).
Qed.

Lemma SQz_mono E E' r p v : incl E E' -> SQz E r p v -> SQz E' r p v.
Proof. intros Hi. apply SpecProofs.SQ_mono. exact Hi. Qed.
Lemma backed_mono E E' j : incl E E' -> backed E j -> backed E' j.
Proof. intros Hi [H1 H2]. split; [exact H1|eapply SQz_mono; eauto]. Qed.
Lemma justifiedz_mono E E' r v : incl E E' -> justifiedz E r v -> justifiedz E' r v.
Proof. intros Hi. apply SpecProofs.justified_mono. exact Hi. Qed.

End Cfg.
