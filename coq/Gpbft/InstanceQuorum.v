(* Layer N, protocol discipline (C07), quorum bookkeeping: the explicit panics around quorum bookkeeping are unreachable.
   Every PREPARE / COMMIT / DECIDE quorum state of the instance is built from q_empty by q_receive (one vote per sender)
   and q_receive_just; such states satisfy QS below, and on QS states
     - FindStrongQuorumValue never sees two values with a strong quorum   ("multiple chains with strong quorum"),
     - FindStrongQuorumFor finds signers whenever hasStrongQuorum is set   ("strong quorum exists but could not be found"),
   hence tryDecide, tryCommit -> beginDecide and tryPrepare -> beginCommit do not panic. *)
From Coq Require Import ZArith List Lia Permutation.
From F3 Require Import ListX QuorumGen QuorumProofs Sets Instance InstanceOrder InstanceDecide.
Import ListNotations.
Open Scope Z_scope.

Section Cfg.
Variable c : config.
(* the committee: scaled powers are non-negative, the total is that of the power table, and the members' powers add up to
   at most the total (ScaledTotal is the sum of ScaledPower) *)
Hypothesis Htotal : 0 < c_total c < two62.
Hypothesis Hpow : forall s, 0 <= power_of c s.
Hypothesis Hsum : forall l, NoDup l -> sum_power c l <= c_total c.

Lemma sum_power_app a b : sum_power c (a ++ b) = sum_power c a + sum_power c b.
Proof. exact (sumf_app (power_of c) a b). Qed.
Lemma sum_power_perm a b : Permutation a b -> sum_power c a = sum_power c b.
Proof. unfold sum_power. induction 1; cbn; lia. Qed.
Lemma sum_power_nonneg l : 0 <= sum_power c l.
Proof. exact (sumf_nonneg (power_of c) l (fun x _ => Hpow x)). Qed.

Lemma strong_mono p q : p <= q -> isStrongQuorum p (c_total c) = true -> isStrongQuorum q (c_total c) = true.
Proof using Htotal Hpow. exact (strong_quorum_mono p q (c_total c)). Qed.

Record sup_wf (q : qstate) (s : support) : Prop := {
  sw_nodup : NoDup (s_signers s);
  sw_incl : incl (s_signers s) (q_senders q);
  sw_power : s_power s = sum_power c (s_signers s);
  sw_sq : s_sq s = isStrongQuorum (s_power s) (c_total c) }.
Fixpoint chains_distinct (l : list support) : Prop :=
  match l with [] => True | s :: r => (forall t, In t r -> s_chain t <> s_chain s) /\ chains_distinct r end.
Fixpoint signers_disjoint (l : list support) : Prop :=
  match l with [] => True | s :: r => (forall t x, In t r -> In x (s_signers s) -> ~ In x (s_signers t)) /\ signers_disjoint r end.
Record QS (q : qstate) : Prop := {
  qs_nodup : NoDup (q_senders q);
  qs_sup : forall s, In s (q_support q) -> sup_wf q s;
  qs_chains : chains_distinct (q_support q);
  qs_disj : signers_disjoint (q_support q) }.

Lemma QS_empty : QS q_empty.
Proof. constructor; cbn; auto; [constructor|intros s []]. Qed.

Lemma take_quorum_complete l : forall acc pw,
  isStrongQuorum (pw + sum_power c l) (c_total c) = true -> l <> [] -> take_quorum c l acc pw <> None.
Proof.
  induction l as [|s l IH]; intros acc pw H Hne; [congruence|]. cbn.
  destruct (isStrongQuorum (pw + power_of c s) (c_total c)) eqn:E; [discriminate|].
  destruct l as [|t l'].
  - exfalso. unfold sum_power in H. cbn in H. rewrite Z.add_0_r in H. congruence.
  - apply IH; [|discriminate]. unfold sum_power in *. cbn in *. rewrite <- H. f_equal. lia.
Qed.

Lemma find_sq_for_no_panic q k : QS q -> q_find_sq_for c q k <> FsqPanic.
Proof.
  intros HQ. unfold q_find_sq_for. destruct (sup_find (q_support q) k) as [s|] eqn:Ef; [|discriminate].
  destruct (s_sq s) eqn:Esq; [|discriminate].
  destruct (sup_find_In _ _ _ Ef) as [Hin _]. destruct (qs_sup q HQ s Hin) as [_ _ Hp Hs].
  destruct (take_quorum c (sortZ (s_signers s)) [] 0) eqn:Et; [discriminate|]. exfalso.
  assert (Hperm := sortZ_perm (s_signers s)).
  apply (take_quorum_complete (sortZ (s_signers s)) [] 0); [| |exact Et].
  - rewrite (sum_power_perm _ _ Hperm), Z.add_0_l, <- Hp, <- Hs. exact Esq.
  - intros E. rewrite E in Hperm. apply Permutation_nil in Hperm.
    rewrite Hs, Hp, Hperm in Esq. unfold sum_power in Esq. cbn in Esq.
    apply (strong_iff 0 (c_total c)) in Esq; lia.
Qed.
Lemma find_sq_for_some q k s : QS q -> sup_find (q_support q) k = Some s -> s_sq s = true -> exists sg, q_find_sq_for c q k = FsqSome sg.
Proof.
  intros HQ Ef Esq. pose proof (find_sq_for_no_panic q k HQ) as Hn. unfold q_find_sq_for in *. rewrite Ef, Esq in *.
  destruct (take_quorum c (sortZ (s_signers s)) [] 0) as [sg|]; [exists sg; reflexivity|congruence].
Qed.

Lemma two_quorums_impossible q s t :
  QS q -> In s (q_support q) -> In t (q_support q) -> s_sq s = true -> s_sq t = true ->
  (forall x, In x (s_signers s) -> ~ In x (s_signers t)) -> False.
Proof.
  intros HQ Hs Ht Es Et Hd.
  destruct (qs_sup q HQ s Hs) as [N1 I1 P1 S1]. destruct (qs_sup q HQ t Ht) as [N2 I2 P2 S2].
  rewrite S1 in Es. rewrite S2 in Et.
  apply (strong_iff _ (c_total c)) in Es; [|lia]. apply (strong_iff _ (c_total c)) in Et; [|lia].
  assert (Hnd : NoDup (s_signers s ++ s_signers t)) by (apply nodup_app; assumption).
  pose proof (Hsum _ Hnd) as Hle. rewrite sum_power_app, <- P1, <- P2 in Hle. lia.
Qed.

Lemma disjoint_lookup l : signers_disjoint l -> forall s t, In s l -> In t l -> s <> t ->
  (forall x, In x (s_signers s) -> ~ In x (s_signers t)).
Proof.
  induction l as [|u l IH]; intros Hd s t Hs Ht Hne; [contradiction|]. cbn in Hd. destruct Hd as [Hd1 Hd2].
  destruct Hs as [->|Hs], Ht as [->|Ht]; try congruence.
  - intros x Hx. apply (Hd1 t x Ht Hx).
  - intros x Hx Hx'. apply (Hd1 s x Hs Hx' Hx).
  - apply IH; assumption.
Qed.

Theorem find_sq_value_no_panic q : QS q -> q_find_sq_value q <> FsvPanic.
Proof.
  intros HQ. unfold q_find_sq_value.
  destruct (filter s_sq (q_support q)) as [|s [|t r]] eqn:Ef; try discriminate. exfalso.
  assert (Hs : In s (filter s_sq (q_support q))) by (rewrite Ef; left; reflexivity).
  assert (Ht : In t (filter s_sq (q_support q))) by (rewrite Ef; right; left; reflexivity).
  apply filter_In in Hs. apply filter_In in Ht. destruct Hs as [Hs Es], Ht as [Ht Et].
  (* s and t are different elements of the support list: the filtered list has no duplicates of position *)
  assert (Hne : s <> t).
  { intros E. subst t.
    (* the same support twice in the filter would mean it occurs twice in the support list: its chain would repeat *)
    assert (Hc := qs_chains q HQ). clear - Ef Hc.
    induction (q_support q) as [|u l IH]; cbn in *; [discriminate|].
    destruct Hc as [Hc1 Hc2]. destruct (s_sq u) eqn:Eu.
    - injection Ef as -> Ef. assert (In s (filter s_sq l)) by (rewrite Ef; left; reflexivity).
      apply filter_In in H. destruct H as [H _]. apply (Hc1 s H). reflexivity.
    - apply IH; assumption. }
  apply (two_quorums_impossible q s t HQ Hs Ht Es Et). apply (disjoint_lookup _ (qs_disj q HQ)); assumption.
Qed.

Lemma find_sq_value_support q v : QS q -> q_find_sq_value q = FsvSome v ->
  exists s, sup_find (q_support q) v = Some s /\ s_sq s = true.
Proof.
  intros HQ. unfold q_find_sq_value. destruct (filter s_sq (q_support q)) as [|s [|t r]] eqn:Ef; try discriminate.
  intros H. injection H as <-.
  assert (Hs : In s (filter s_sq (q_support q))) by (rewrite Ef; left; reflexivity).
  apply filter_In in Hs. destruct Hs as [Hs Es]. exists s. split; [|exact Es].
  assert (Hc := qs_chains q HQ). clear - Hs Hc.
  induction (q_support q) as [|u l IH]; [contradiction|]. cbn in *. destruct Hc as [Hc1 Hc2].
  destruct Hs as [->|Hs]; [rewrite chain_eqb_refl; reflexivity|].
  destruct (chain_eqb (s_chain u) (s_chain s)) eqn:E; [apply chain_eqb_eq in E; exfalso; apply (Hc1 s Hs); congruence|apply IH; assumption].
Qed.

Theorem try_decide_no_panic i :
  QS (i_decision i) -> i_err i = None ->
  i_err (try_decide c i) = None.
Proof.
  intros HQ He. apply try_decide_cases; intros.
  - exfalso. exact (find_sq_value_no_panic _ HQ H).
  - exact He.
  - exfalso. destruct (find_sq_value_support _ v HQ H) as (s & Ef & Es). destruct (find_sq_for_some _ v s HQ Ef Es) as (sg & E). exact (H0 sg E).
  - rewrite (err_quiet _ _ (quiet_try_rebroadcast c i)). exact He.
Qed.

Theorem begin_decide_no_panic i round x v :
  QS (r_comm (get_round i round)) -> q_find_sq_value (r_comm (get_round i round)) = FsvSome (x :: v) -> i_err i = None ->
  i_err (begin_decide c (set_pv i (i_proposal i) (x :: v)) round) = None.
Proof.
  intros HQ Ev He.
  destruct (find_sq_value_support _ _ HQ Ev) as (s & Ef & Es). destruct (find_sq_for_some _ _ s HQ Ef Es) as (sg & E).
  apply begin_decide_cases; intros; [exact He|exfalso]. cbn [i_value set_pv] in H.
  change (get_round (set_pv i (i_proposal i) (x :: v)) round) with (get_round i round) in H. destruct H as [H|H]; congruence.
Qed.

Lemma try_prepare_err_none i :
  QS (r_prep (get_round i (i_round i))) -> i_err i = None -> i_err (try_prepare c i) = None.
Proof.
  intros HQ He.
  (* `exact He` also closes the leaf that commits bottom: beginCommit on bottom records no error, by computation *)
  apply try_prepare_cases; intros; try exact He.
  - apply begin_commit_cases; cbn [i_value set_pv]; intros; try exact He; exfalso.
    + exact (find_sq_for_no_panic _ _ HQ H1).
    + destruct H as [Hf|[Hj|[Hj|Hj]]].
      * unfold q_has_sq in Hf. destruct (sup_find (q_support (r_prep (get_round i (i_round i)))) (i_proposal i)) as [s|] eqn:E1; [|discriminate Hf].
        destruct (find_sq_for_some _ _ s HQ E1 Hf) as (sg & E3). change (q_find_sq_for c (r_prep (get_round i (i_round i))) (i_proposal i) = FsqNone) in H1. congruence.
      * unfold q_has_just in Hj. change (q_get_just (r_comm (get_round i (i_round i))) PREPARE (i_proposal i) = None) in H2. rewrite H2 in Hj. discriminate Hj.
      * unfold q_has_just in Hj. change (q_get_just (r_prep (get_round i (i_round i + 1))) PREPARE (i_proposal i) = None) in H3. rewrite H3 in Hj. discriminate Hj.
      * unfold c_has_just in Hj. change (c_get_just (r_conv (get_round i (i_round i + 1))) PREPARE (i_proposal i) = None) in H4. rewrite H4 in Hj. discriminate Hj.
  - rewrite (err_quiet _ _ (quiet_try_rebroadcast c i)). exact He.
Qed.
Theorem try_prepare_no_panic i :
  QS (r_prep (get_round i (i_round i))) -> i_err i = None ->
  i_err (try_prepare c i) <> Some PBeginCommit /\ i_err (try_prepare c i) <> Some PFindQuorum.
Proof. intros HQ He. rewrite (try_prepare_err_none i HQ He). split; discriminate. Qed.

Lemma sup_find_none_chain l k : sup_find l k = None -> forall t, In t l -> s_chain t <> k.
Proof.
  induction l as [|x l IH]; intros H t Ht; [contradiction|]. cbn in H.
  destruct (chain_eqb (s_chain x) k) eqn:E; [discriminate|]. destruct Ht as [->|Ht]; [|apply IH; assumption].
  intros Ec. rewrite Ec, chain_eqb_refl in E. discriminate.
Qed.
Lemma sup_set_split l s :
  (exists l1 old l2, l = l1 ++ old :: l2 /\ s_chain old = s_chain s /\ sup_set l s = l1 ++ s :: l2 /\ sup_find l (s_chain s) = Some old) \/
  (sup_find l (s_chain s) = None /\ sup_set l s = l ++ [s]).
Proof.
  induction l as [|x l IH]; cbn; [right; split; reflexivity|].
  destruct (chain_eqb (s_chain x) (s_chain s)) eqn:E.
  - left. exists [], x, l. apply chain_eqb_eq in E. repeat split; auto.
  - destruct IH as [(l1 & old & l2 & -> & Hc & Hs & Hf)|[Hn Hs]].
    + left. exists (x :: l1), old, l2. cbn. rewrite Hs. repeat split; auto.
    + right. rewrite Hs. split; [exact Hn|reflexivity].
Qed.

Lemma chains_distinct_app l s : chains_distinct l -> (forall t, In t l -> s_chain t <> s_chain s) -> chains_distinct (l ++ [s]).
Proof.
  induction l as [|x l IH]; cbn; intros Hd Hn; [split; [intros t []|exact I]|].
  destruct Hd as [H1 H2]. split.
  - intros t Ht. apply in_app_or in Ht. destruct Ht as [Ht|[<-|[]]]; [apply H1; exact Ht|]. intros E. apply (Hn x); [left; reflexivity|congruence].
  - apply IH; [exact H2|]. intros t Ht. apply Hn. right. exact Ht.
Qed.
Lemma chains_distinct_replace l1 old l2 s : s_chain old = s_chain s -> chains_distinct (l1 ++ old :: l2) -> chains_distinct (l1 ++ s :: l2).
Proof.
  intros Hc. induction l1 as [|x l1 IH]; cbn; intros [H1 H2].
  - split; [intros t Ht; rewrite <- Hc; apply H1; exact Ht|exact H2].
  - split; [|apply IH; exact H2].
    intros t Ht. apply in_app_or in Ht. destruct Ht as [Ht|[<-|Ht]].
    + apply H1. apply in_or_app. left. exact Ht.
    + rewrite <- Hc. apply H1. apply in_or_app. right. left. reflexivity.
    + apply H1. apply in_or_app. right. right. exact Ht.
Qed.
Lemma disjoint_app l s : signers_disjoint l -> (forall t x, In t l -> In x (s_signers t) -> ~ In x (s_signers s)) -> signers_disjoint (l ++ [s]).
Proof.
  induction l as [|u l IH]; cbn; intros Hd Hn; [split; [intros t x []|exact I]|].
  destruct Hd as [H1 H2]. split.
  - intros t x Ht Hx. apply in_app_or in Ht. destruct Ht as [Ht|[<-|[]]]; [apply H1; assumption|]. apply (Hn u x); [left; reflexivity|exact Hx].
  - apply IH; [exact H2|]. intros t x Ht. apply Hn. right. exact Ht.
Qed.
Lemma disjoint_replace l1 old l2 s sender :
  s_signers s = s_signers old ++ [sender] ->
  (forall t, In t (l1 ++ old :: l2) -> ~ In sender (s_signers t)) ->
  signers_disjoint (l1 ++ old :: l2) -> signers_disjoint (l1 ++ s :: l2).
Proof.
  intros Hs Hfresh. induction l1 as [|u l1 IH]; cbn in *; intros [H1 H2].
  - split; [|exact H2]. intros t x Ht Hx. rewrite Hs in Hx. apply in_app_or in Hx. destruct Hx as [Hx|[<-|[]]].
    + apply H1; assumption.
    + apply Hfresh. right. exact Ht.
  - split.
    + intros t x Ht Hx. apply in_app_or in Ht. destruct Ht as [Ht|[<-|Ht]].
      * apply H1; [apply in_or_app; left; exact Ht|exact Hx].
      * rewrite Hs. intros Hin. apply in_app_or in Hin. destruct Hin as [Hin|[<-|[]]].
        -- revert Hin. apply H1; [apply in_or_app; right; left; reflexivity|exact Hx].
        -- apply (Hfresh u); [left; reflexivity|exact Hx].
      * apply H1; [apply in_or_app; right; right; exact Ht|exact Hx].
    + apply IH; [|exact H2]. intros t Ht. apply Hfresh. right. exact Ht.
Qed.

Theorem QS_receive q sender v : QS q -> QS (q_receive c q sender v).
Proof.
  intros HQ. unfold q_receive. destruct (memZ sender (q_senders q)) eqn:Em; [exact HQ|].
  assert (Hni : ~ In sender (q_senders q)). { intros H. apply memZ_In in H. congruence. }
  destruct HQ as [Hnd Hsup Hch Hdj].
  assert (Hfresh : forall t, In t (q_support q) -> ~ In sender (s_signers t)).
  { intros t Ht Hin. apply Hni. apply (sw_incl q t (Hsup t Ht)). exact Hin. }
  unfold q_receive_inner. cbn [q_senders q_spower q_support q_just].
  set (cand := match sup_find (q_support q) v with Some s => s | None => mkSup v 0 [] false end).
  set (ns := mkSup v (s_power cand + power_of c sender) (s_signers cand ++ [sender]) (isStrongQuorum (s_power cand + power_of c sender) (c_total c))).
  set (q' := mkQ (q_senders q ++ [sender]) (q_spower q + power_of c sender) (sup_set (q_support q) ns) (q_just q)).
  assert (Hold : forall t, In t (q_support q) -> sup_wf q' t).
  { intros t Ht. destruct (Hsup t Ht) as [A B C D]. constructor; auto. intros x Hx. cbn. apply in_or_app. left. apply B. exact Hx. }
  assert (Hcand : NoDup (s_signers cand) /\ incl (s_signers cand) (q_senders q) /\ s_power cand = sum_power c (s_signers cand)).
  { unfold cand. destruct (sup_find (q_support q) v) as [s|] eqn:Ef.
    - destruct (sup_find_In _ _ _ Ef) as [Hin _]. destruct (Hsup s Hin) as [A B C D]. auto.
    - cbn. repeat split; [constructor|intros x []]. }
  destruct Hcand as (C1 & C2 & C3).
  assert (Hns : sup_wf q' ns).
  { constructor; cbn.
    - apply nodup_snoc; [exact C1|intros Hx; apply Hni, C2; exact Hx].
    - intros x Hx. apply in_app_or in Hx. destruct Hx as [Hx|[<-|[]]]; apply in_or_app; [left; apply C2; exact Hx|right; left; reflexivity].
    - change (s_power cand + power_of c sender = sum_power c (s_signers cand ++ [sender])). rewrite sum_power_app, C3. unfold sum_power. cbn. lia.
    - reflexivity. }
  change (QS q'). constructor; unfold q'; cbn [q_senders q_support].
  - apply nodup_snoc; assumption.
  - intros t Ht. apply sup_set_In in Ht. fold q'. destruct Ht as [->|Ht]; [exact Hns|apply Hold; exact Ht].
  - destruct (sup_set_split (q_support q) ns) as [(l1 & old & l2 & El & Hc & Hs & Hf)|[Hn Hs]]; rewrite Hs.
    + rewrite El in Hch. eapply chains_distinct_replace; eauto.
    + apply chains_distinct_app; [exact Hch|]. apply sup_find_none_chain. exact Hn.
  - destruct (sup_set_split (q_support q) ns) as [(l1 & old & l2 & El & Hc & Hs & Hf)|[Hn Hs]]; rewrite Hs.
    + assert (Eo : cand = old). { unfold cand. cbn in Hf. rewrite Hf. reflexivity. }
      rewrite El in Hdj, Hfresh. eapply (disjoint_replace l1 old l2 ns sender); [cbn; rewrite Eo; reflexivity|exact Hfresh|exact Hdj].
    + apply disjoint_app; [exact Hdj|].
      assert (Ec : s_signers cand = []). { unfold cand. cbn in Hn. rewrite Hn. reflexivity. }
      intros t x Ht Hx. cbn. rewrite Ec. cbn. intros [<-|[]]. apply (Hfresh t Ht). exact Hx.
Qed.
Lemma QS_receive_just q v j : QS q -> QS (q_receive_just q v j).
Proof.
  intros [A B C D]. unfold q_receive_just. destruct (existsb _ _); constructor; cbn; auto.
  intros s Hs. destruct (B s Hs) as [E F G H]. constructor; auto.
Qed.

End Cfg.
