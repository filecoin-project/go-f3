(* Layer N, decisions (C03): whenever the instance reports a decision, the justification is for round 0 of DECIDE,
   lists distinct committee members that each carry non-zero scaled power, each of whom sent a DECIDE for exactly the
   decided value, and together they hold a strong quorum.  Proved for EVERY sequence of deliveries and timers in which
   DECIDE messages come from members with non-zero power and carry round 0 (what validation enforces). *)
From Coq Require Import ZArith List Permutation.
From F3 Require Import ListX QuorumGen Instance InstanceOrder.
Import ListNotations.
Open Scope Z_scope.

Section Cfg.
Variable c : config.

Definition sum_power (l : list Z) : Z := fold_right (fun x a => power_of c x + a) 0 l.

Lemma sortZ_perm l : Permutation (sortZ l) l.
Proof. exact (isort_perm Z Z.ltb l). Qed.

Lemma take_quorum_spec l : forall acc pw r,
  take_quorum c l acc pw = Some r ->
  exists l1 l2, l = l1 ++ l2 /\ r = acc ++ l1 /\ isStrongQuorum (pw + sum_power l1) (c_total c) = true.
Proof.
  induction l as [|s l IH]; intros acc pw r H; cbn in H; [discriminate H|].
  destruct (isStrongQuorum (pw + power_of c s) (c_total c)) eqn:E.
  - injection H as <-. exists [s], l. repeat split. cbn. rewrite Z.add_0_r. exact E.
  - destruct (IH _ _ _ H) as (l1 & l2 & -> & -> & Hq). exists (s :: l1), l2. repeat split.
    + rewrite <- app_assoc. reflexivity.
    + cbn. rewrite Z.add_assoc. exact Hq.
Qed.

Definition sup_ok (q : qstate) (s : support) : Prop :=
  incl (s_signers s) (q_senders q) /\ NoDup (s_signers s) /\ (forall x, In x (s_signers s) -> 0 < power_of c x).
Definition QInv (q : qstate) : Prop := NoDup (q_senders q) /\ forall s, In s (q_support q) -> sup_ok q s.

Lemma QInv_empty : QInv q_empty. Proof. split; [constructor|intros s []]. Qed.

Lemma QInv_receive q sender v : QInv q -> 0 < power_of c sender -> QInv (q_receive c q sender v).
Proof.
  intros [Hnd Hs] Hpw. unfold q_receive. destruct (memZ sender (q_senders q)) eqn:Em; [split; assumption|].
  assert (Hni : ~ In sender (q_senders q)). { intros H. apply memZ_In in H. congruence. }
  unfold q_receive_inner. cbn [q_senders q_spower q_support q_just]. split; cbn [q_senders q_support].
  - apply nodup_snoc; assumption.
  - intros s Hin. apply sup_set_In in Hin. destruct Hin as [->|Hin].
    + unfold sup_ok. cbn [s_signers q_senders].
      destruct (sup_find (q_support q) v) as [old|] eqn:Ef.
      * destruct (sup_find_In _ _ _ Ef) as [Hold _]. destruct (Hs old Hold) as (H1 & H2 & H3).
        repeat split.
        -- intros x Hx. apply in_app_or in Hx. destruct Hx as [Hx|[<-|[]]]; apply in_or_app; [left; apply H1; exact Hx|right; left; reflexivity].
        -- apply nodup_snoc; [exact H2|intros Hx; apply Hni, H1; exact Hx].
        -- intros x Hx. apply in_app_or in Hx. destruct Hx as [Hx|[<-|[]]]; [apply H3; exact Hx|exact Hpw].
      * cbn. repeat split.
        -- intros x [<-|[]]. apply in_or_app; right; left; reflexivity.
        -- constructor; [intros []|constructor].
        -- intros x [<-|[]]. exact Hpw.
    + destruct (Hs s Hin) as (H1 & H2 & H3). repeat split; try assumption.
      intros x Hx. apply in_or_app; left; apply H1; exact Hx.
Qed.

Definition Good (q : qstate) (j : just) : Prop :=
  j_round j = 0 /\ j_phase j = DECIDE /\ NoDup (j_signers j) /\
  (forall x, In x (j_signers j) -> 0 < power_of c x) /\
  isStrongQuorum (sum_power (j_signers j)) (c_total c) = true /\
  exists s, sup_find (q_support q) (j_value j) = Some s /\ incl (j_signers j) (s_signers s).

Lemma find_sq_for_good q v sg : QInv q -> q_find_sq_for c q v = FsqSome sg -> Good q (build_just 0 DECIDE v sg).
Proof.
  intros [_ Hs] H. unfold q_find_sq_for in H. destruct (sup_find (q_support q) v) as [s|] eqn:Ef; [|discriminate H].
  destruct (s_sq s); [|discriminate H]. destruct (take_quorum c (sortZ (s_signers s)) [] 0) as [r|] eqn:Et; [|discriminate H].
  injection H as <-. destruct (take_quorum_spec _ _ _ _ Et) as (l1 & l2 & El & -> & Hq). cbn [app] in *.
  destruct (sup_find_In _ _ _ Ef) as [Hin _]. destruct (Hs s Hin) as (_ & H2 & H3).
  assert (Hp : Permutation (l1 ++ l2) (s_signers s)) by (rewrite <- El; apply sortZ_perm).
  assert (Hnd : NoDup (l1 ++ l2)) by (eapply Permutation_NoDup; [apply Permutation_sym; exact Hp|exact H2]).
  unfold Good, build_just. cbn [j_round j_phase j_value j_signers]. repeat split.
  - apply nodup_app_l in Hnd. exact Hnd.
  - intros x Hx. apply H3. eapply Permutation_in; [exact Hp|apply in_or_app; left; exact Hx].
  - exact Hq.
  - exists s. split; [exact Ef|]. intros x Hx. eapply Permutation_in; [exact Hp|apply in_or_app; left; exact Hx].
Qed.

Lemma Good_receive q j sender v : Good q j -> Good (q_receive c q sender v) j.
Proof.
  intros (H1 & H2 & H3 & H4 & H5 & s & Hf & Hi). repeat split; try assumption.
  unfold q_receive. destruct (memZ sender (q_senders q)); [exists s; split; assumption|].
  unfold q_receive_inner. cbn [q_support].
  destruct (chain_eqb v (j_value j)) eqn:E.
  - apply chain_eqb_eq in E. subst v. rewrite Hf.
    set (ns := mkSup (j_value j) _ _ _). exists ns. split.
    + exact (sup_find_set_same (q_support q) ns).
    + cbn. intros x Hx. apply in_or_app; left; apply Hi; exact Hx.
  - exists s. split; [|exact Hi]. rewrite sup_find_set_other; [exact Hf|exact E].
Qed.

(* what validation guarantees about DECIDE messages *)
Definition wfd (e : event) : Prop :=
  match e with EvDeliver _ m _ => m_phase m = DECIDE -> m_round m = 0 /\ 0 < power_of c (m_sender m) | _ => True end.
Lemma wfd_wfe e : wfd e -> wfe e.
Proof. destruct e as [|now m sw|]; cbn; auto. intros H Hm. apply (H Hm). Qed.

Definition DInv (i : inst) : Prop := QInv (i_decision i) /\ forall j, i_term i = Some j -> Good (i_decision i) j.

Lemma DInv_step i e : Inv i -> DInv i -> wfd e -> DInv (step c i e).
Proof.
  intros HI [HQ HT] Hw. destruct (step_ordered c i e HI (wfd_wfe e Hw)) as (_ & _ & _ & _ & [Hd Ht]).
  assert (HQ' : QInv (i_decision (step c i e))).
  { destruct Hd as [->|(now & m & sw & -> & Hm & ->)]; [exact HQ|]. apply QInv_receive; [exact HQ|]. apply (Hw Hm). }
  split; [exact HQ'|]. intros j Hj.
  destruct Ht as [E|(v & sg & E & F1 & F2)].
  - rewrite E in Hj. specialize (HT j Hj).
    destruct Hd as [->|(now & m & sw & _ & _ & ->)]; [exact HT|apply Good_receive; exact HT].
  - rewrite E in Hj. injection Hj as <-. apply find_sq_for_good; assumption.
Qed.

Lemma DInv_new input now : DInv (new_instance input now).
Proof. split; [apply QInv_empty|intros j H; discriminate H]. Qed.

Theorem decision_is_proof input now evs j :
  Forall wfd evs ->
  let f := snd (run_hist c (new_instance input now) evs) in
  i_term f = Some j ->
  j_round j = 0 /\ j_phase j = DECIDE /\ NoDup (j_signers j) /\
  (forall x, In x (j_signers j) -> 0 < power_of c x) /\
  isStrongQuorum (sum_power (j_signers j)) (c_total c) = true /\
  exists s, sup_find (q_support (i_decision f)) (j_value j) = Some s /\ incl (j_signers j) (s_signers s).
Proof.
  intros Hw f Hj. destruct (run_hist_inv c DInv wfd wfd_wfe (fun i e HI HD He => DInv_step (clear_out i) e HI HD He) evs _ (Inv_new input now) (DInv_new input now) Hw) as [[_ HT] _].
  exact (HT j Hj).
Qed.

End Cfg.
