(* The happy path on ONE instance (C02 second sentence, C06), first part: the shape of an instance whose input is v and
   which has only ever been handed round-0 votes for v -- every tally holds v alone (uni, uniQ), the instance is in round 0
   with proposal and value v (shape) -- and what the quorum functions answer on such tallies.  HappyStep.v shows that every
   timely delivery keeps the shape; HappyNet.v composes this over the network model, HappyLive.v adds progress. *)
From Coq Require Import ZArith List Lia.
From F3 Require Import ListX GoInt QuorumGen QuorumProofs Sets Instance InstanceOrder InstanceVotes InstanceDecide InstanceQuorum InstanceNoPanic.
Import ListNotations.
Open Scope Z_scope.

Section Happy.
Variable c : config.
Variable v : chain.
Hypothesis Hv : (2 <= length v)%nat.
Hypothesis Hcw : committee_wf c.
Hypothesis Hrr : 0 <= c_rebro_round c.

Local Notation total := (c_total c).
Local Notation strong p := (isStrongQuorum p (c_total c)).

Lemma Htot : 0 < total < two62. Proof. exact (proj1 (committee_wf_ok c Hcw)). Qed.
Lemma Hpow s : 0 <= power_of c s. Proof. exact (proj1 (proj2 (committee_wf_ok c Hcw)) s). Qed.
Lemma Hsum l : NoDup l -> sum_power c l <= total. Proof. exact (proj2 (proj2 (committee_wf_ok c Hcw)) l). Qed.
Lemma v_cons : exists x w, v = x :: w. Proof. destruct v as [|x w]; [cbn in Hv; lia|eauto]. Qed.
Lemma v_nonnil : v <> []. Proof. destruct v_cons as (x & w & ->). discriminate. Qed.
Lemma strong0 : strong 0 = false.
Proof. pose proof Htot as Ht. destruct (strong 0) eqn:E; [|reflexivity]. apply (strong_iff 0 total) in E; clear - E Ht; lia. Qed.

Definition uni (q : qstate) : Prop :=
  NoDup (q_senders q) /\ q_spower q = sum_power c (q_senders q) /\
  ((q_senders q = [] /\ q_support q = []) \/
   (q_senders q <> [] /\ exists sg, q_support q = [mkSup v (q_spower q) sg (strong (q_spower q))])).
(* the QUALITY tally records every prefix; only the entry of v itself matters here *)
Definition uniQ (q : qstate) : Prop :=
  NoDup (q_senders q) /\ q_spower q = sum_power c (q_senders q) /\
  ((q_senders q = [] /\ sup_find (q_support q) v = None) \/
   (q_senders q <> [] /\ exists sg, sup_find (q_support q) v = Some (mkSup v (q_spower q) sg (strong (q_spower q))))).

Lemma uni_empty : uni q_empty.
Proof. split; [constructor|]. split; [reflexivity|]. left. split; reflexivity. Qed.
Lemma uniQ_empty : uniQ q_empty.
Proof. split; [constructor|]. split; [reflexivity|]. left. split; reflexivity. Qed.

Lemma sum_power_snoc l x : sum_power c (l ++ [x]) = sum_power c l + power_of c x.
Proof. exact (sumf_snoc (power_of c) l x). Qed.

Lemma uni_receive q s : uni q -> uni (q_receive c q s v).
Proof.
  intros (Hn & Hs & Hc). unfold q_receive. destruct (memZ s (q_senders q)) eqn:Em; [split; [exact Hn|split; [exact Hs|exact Hc]]|].
  assert (Hni : ~ In s (q_senders q)) by (intros H; apply memZ_In in H; congruence).
  unfold q_receive_inner, uni. cbn [q_senders q_spower q_support q_just].
  split; [apply nodup_snoc; assumption|]. split; [rewrite sum_power_snoc, Hs; reflexivity|].
  right. split; [intros H; destruct (q_senders q); discriminate H|].
  destruct Hc as [(E1 & E2)|(_ & sg & E2)]; rewrite E2.
  - assert (Hsp : q_spower q = 0) by (rewrite Hs, E1; reflexivity).
    cbn [sup_find sup_set s_power s_signers]. rewrite Hsp, !Z.add_0_l. eexists. reflexivity.
  - cbn [sup_find s_chain]. rewrite chain_eqb_refl. cbn [sup_set s_chain s_power s_signers]. rewrite chain_eqb_refl.
    eexists. reflexivity.
Qed.
Lemma uni_receive_just q j : uni q -> uni (q_receive_just q v j).
Proof. intros H. unfold q_receive_just. destruct (existsb _ _); [exact H|]. exact H. Qed.

Lemma uni_spower_le q : uni q -> 0 <= q_spower q <= total.
Proof. intros (Hn & Hs & _). rewrite Hs. split; [apply sum_power_nonneg; first [exact Hpow|exact Hsum]|apply Hsum; exact Hn]. Qed.

Lemma uni_has_sq q : uni q -> q_has_sq q v = strong (q_spower q).
Proof.
  intros (Hn & Hs & [(E1 & E2)|(_ & sg & E2)]); unfold q_has_sq; rewrite E2; cbn [sup_find s_chain].
  - rewrite Hs, E1. cbn. symmetry. apply strong0.
  - rewrite chain_eqb_refl. reflexivity.
Qed.
Lemma uni_find_sq_value q : uni q -> q_find_sq_value q = if strong (q_spower q) then FsvSome v else FsvNone.
Proof.
  intros (Hn & Hs & [(E1 & E2)|(_ & sg & E2)]); unfold q_find_sq_value; rewrite E2; cbn [filter s_sq].
  - rewrite Hs, E1. cbn [sum_power fold_right]. rewrite strong0. reflexivity.
  - destruct (strong (q_spower q)); reflexivity.
Qed.
Lemma uni_sup_find q : uni q -> strong (q_spower q) = true -> exists sg, sup_find (q_support q) v = Some (mkSup v (q_spower q) sg true).
Proof using Hv Hcw.
  intros (Hn & Hs & [(E1 & E2)|(_ & sg & E2)]) Hst.
  - rewrite Hs, E1 in Hst. cbn in Hst. rewrite strong0 in Hst. discriminate.
  - exists sg. rewrite E2. cbn [sup_find s_chain]. rewrite chain_eqb_refl, Hst. reflexivity.
Qed.
Lemma could_reach_all found sp : 0 <= sp <= total -> (found = false -> sp = 0) ->
  couldReachStrongQuorumFor false sp found sp total = true.
Proof.
  intros H H0. pose proof Htot as Ht. unfold couldReachStrongQuorumFor, two62 in *. cbv zeta.
  replace (if found then sp else 0) with sp by (destruct found; [reflexivity|exact (H0 eq_refl)]).
  unfold add_i64, sub_i64. rewrite (wrap_i64_id (total - sp)) by (unfold in_i64, two63; lia).
  rewrite (wrap_i64_id (sp + (total - sp))) by (unfold in_i64, two63; lia).
  rewrite (wrap_i64_id (sp + (total - sp) + 0)) by (unfold in_i64, two63; lia).
  replace (sp + (total - sp) + 0) with total by lia. rewrite Z.min_id. apply (strong_iff total total); unfold two62; lia.
Qed.
Lemma uni_could_reach q : uni q -> q_could_reach c q v false = true.
Proof.
  intros U. pose proof (uni_spower_le q U) as Hb. destruct U as (Hn & Hs & [(E1 & E2)|(_ & sg & E2)]); unfold q_could_reach; rewrite E2; cbn [sup_find s_chain].
  - replace (q_spower q) with 0 by (rewrite Hs, E1; reflexivity). apply could_reach_all; [pose proof Htot; lia|reflexivity].
  - rewrite chain_eqb_refl. cbn [s_power]. apply could_reach_all; [exact Hb|discriminate].
Qed.

Lemma inner_other q s p pw : p <> v ->
  let q' := q_receive_inner c q s p pw in
  q_senders q' = q_senders q /\ q_spower q' = q_spower q /\ sup_find (q_support q') v = sup_find (q_support q) v.
Proof.
  intros Hne. unfold q_receive_inner. cbn [q_senders q_spower q_support]. repeat split.
  apply sup_find_set_other. cbn [s_chain]. destruct (chain_eqb p v) eqn:E; [apply chain_eqb_eq in E; contradiction|reflexivity].
Qed.
Lemma all_prefixes_last : exists ps, all_prefixes v = ps ++ [v] /\ forall p, In p ps -> p <> v.
Proof.
  rewrite all_prefixes_map. set (n := length v) in *.
  assert (Hn : (n - 1 = S (n - 2))%nat) by lia. rewrite Hn, seq_S, map_app. cbn [map].
  exists (map (fun k => firstn (S k) v) (seq 1 (n - 2))). split.
  - f_equal. f_equal. replace (S (1 + (n - 2))) with n by lia. apply firstn_all.
  - intros p Hp Ep. apply in_map_iff in Hp. destruct Hp as (k & <- & Hk). apply in_seq in Hk.
    assert (L : length (firstn (S k) v) = S k) by (apply firstn_length_le; lia). rewrite Ep in L. lia.
Qed.
Lemma uniQ_receive q s : uniQ q -> uniQ (q_receive_prefixes c q s v).
Proof.
  intros (Hn & Hs & Hc). unfold q_receive_prefixes. destruct (memZ s (q_senders q)) eqn:Em; [split; [exact Hn|split; [exact Hs|exact Hc]]|].
  assert (Hni : ~ In s (q_senders q)) by (intros H; apply memZ_In in H; congruence).
  destruct all_prefixes_last as (ps & -> & Hps). rewrite fold_left_app. cbn [fold_left].
  set (q0 := mkQ (q_senders q ++ [s]) (q_spower q + power_of c s) (q_support q) (q_just q)).
  assert (Hfold : forall l q1, (forall p, In p l -> p <> v) ->
            let q2 := fold_left (fun q p => q_receive_inner c q s p (power_of c s)) l q1 in
            q_senders q2 = q_senders q1 /\ q_spower q2 = q_spower q1 /\ sup_find (q_support q2) v = sup_find (q_support q1) v).
  { induction l as [|p l IH]; intros q1 Hl; cbn [fold_left]; [repeat split|].
    destruct (inner_other q1 s p (power_of c s) (Hl p (or_introl eq_refl))) as (A & B & C).
    destruct (IH (q_receive_inner c q1 s p (power_of c s)) (fun p' Hp' => Hl p' (or_intror Hp'))) as (A' & B' & C').
    cbv zeta in *. rewrite A', B', C'. repeat split; assumption. }
  destruct (Hfold ps q0 Hps) as (A & B & C). cbv zeta in A, B, C.
  set (q2 := fold_left (fun q p => q_receive_inner c q s p (power_of c s)) ps q0) in *.
  unfold q_receive_inner, uniQ. cbn [q_senders q_spower q_support]. rewrite A, B. unfold q0. cbn [q_senders q_spower].
  split; [apply nodup_snoc; assumption|]. split; [rewrite sum_power_snoc, Hs; reflexivity|].
  right. split; [intros H; destruct (q_senders q); discriminate H|].
  rewrite C. unfold q0. cbn [q_support].
  destruct Hc as [(E1 & E2)|(_ & sg & E2)]; rewrite E2.
  - assert (Hsp : q_spower q = 0) by (rewrite Hs, E1; reflexivity). cbn [s_power s_signers].
    match goal with |- exists sg0, sup_find (sup_set ?l ?x) v = _ => pose proof (sup_find_set_same l x) as F; cbn [s_chain] in F; rewrite F end.
    eexists. rewrite Hsp, !Z.add_0_l. reflexivity.
  - cbn [s_power s_signers].
    match goal with |- exists sg0, sup_find (sup_set ?l ?x) v = _ => pose proof (sup_find_set_same l x) as F; cbn [s_chain] in F; rewrite F end.
    eexists. reflexivity.
Qed.
Lemma uniQ_has_sq q : uniQ q -> q_has_sq q v = strong (q_spower q).
Proof.
  intros (Hn & Hs & [(E1 & E2)|(_ & sg & E2)]); unfold q_has_sq; rewrite E2.
  - rewrite Hs, E1. cbn. symmetry. apply strong0.
  - reflexivity.
Qed.

Definition vphase (p : phase) : Prop := p = QUALITY \/ p = PREPARE \/ p = COMMIT \/ p = DECIDE \/ p = TERMINATED.
Definition out_v (o : out) : Prop :=
  match o with
  | OBroadcast r p x _ _ => r = 0 /\ x = v /\ (p = QUALITY \/ p = PREPARE \/ p = COMMIT \/ p = DECIDE)
  | _ => True
  end.
Record shape (i : inst) : Prop := {
  sh_input : i_input i = v; sh_prop : i_proposal i = v; sh_round : i_round i = 0;
  sh_rounds : exists prep comm, i_rounds i = [(0, mkR c_empty prep comm)] /\ uni prep /\ uni comm;
  sh_qual : uniQ (i_quality i); sh_dec : uni (i_decision i);
  sh_val : i_value i = v \/ (i_value i = [] /\ i_phase i = QUALITY);
  sh_phase : vphase (i_phase i);
  sh_term : forall j, i_term i = Some j -> j_value j = v;
  sh_out : Forall out_v (i_out i) }.

Definition core (i : inst) := (i_input i, i_proposal i, i_round i, i_rounds i, i_quality i, i_decision i, i_value i, i_phase i, i_term i).
Lemma shape_core i i' : core i' = core i -> Forall out_v (i_out i') -> shape i -> shape i'.
Proof.
  unfold core. intros E Ho [A B C D F G H I J K]. injection E as E1 E2 E3 E4 E5 E6 E7 E8 E9.
  constructor.
  - rewrite E1. exact A.
  - rewrite E2. exact B.
  - rewrite E3. exact C.
  - rewrite E4. exact D.
  - rewrite E5. exact F.
  - rewrite E6. exact G.
  - rewrite E7, E8. exact H.
  - rewrite E8. exact I.
  - rewrite E9. exact J.
  - exact Ho.
Qed.
Definition timely (i : inst) : Prop := i_now i < i_ptimeout i.
Lemma timely_not_elapsed i : timely i -> phase_timeout_elapsed i = false.
Proof. unfold timely, phase_timeout_elapsed. intros H. apply Z.leb_gt. exact H. Qed.
Lemma no_rebroadcast i : timely i -> i_round i = 0 -> should_rebroadcast c i = false.
Proof. intros Ht Hr. unfold should_rebroadcast. rewrite (timely_not_elapsed i Ht), Hr. cbn [orb]. apply Z.ltb_ge. exact Hrr. Qed.

(* what the happy-path invariants read of an instance, the output apart *)
Definition hview (i : inst) :=
  (i_input i, i_proposal i, i_value i, i_quality i, i_rounds i, i_decision i, i_round i, i_phase i, i_ptimeout i, i_term i, i_now i, i_err i).
Lemma hview_try_rebroadcast i : hview (try_rebroadcast c i) = hview i.
Proof.
  destruct (still_try_rebroadcast c i) as ((E & _) & P & N).
  destruct (core_fields _ _ E) as (E1 & E2 & E3 & _ & E5 & E6 & E7 & E8 & E9 & E10 & E11). unfold hview. congruence.
Qed.
Lemma out_try_rebroadcast i : exists al, i_out (try_rebroadcast c i) = al ++ i_out i /\ Forall not_bcast al.
Proof. exact (proj2 (quiet_try_rebroadcast c i)). Qed.

Lemma shape_hview i i' : hview i' = hview i -> Forall out_v (i_out i') -> shape i -> shape i'.
Proof. unfold hview. intros E. injection E as E1 E2 E3 E4 E5 E6 E7 E8 E9 E10 E11 E12. apply shape_core. unfold core. congruence. Qed.
Lemma shape_try_rebroadcast i : shape i -> shape (try_rebroadcast c i).
Proof.
  intros S. apply (shape_hview i); [apply hview_try_rebroadcast| |exact S].
  destruct (out_try_rebroadcast i) as (al & -> & N). apply Forall_app. split; [|exact (sh_out i S)].
  eapply Forall_impl; [|exact N]. intros [] H; try contradiction; exact I.
Qed.
End Happy.
