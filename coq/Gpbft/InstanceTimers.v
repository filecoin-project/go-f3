(* Layer N, timers (C06, node level): the REFUTATION of "an alarm is always pending" on a concrete reachable state (the
   same trace is replayed on the real participant by the C06 harness).  The no-dead-phase and alarm-slot theorems are
   proved where they are stated, in Properties/C06.v. *)
From Coq Require Import ZArith List.
From F3 Require Import Instance InstanceOrder.
Import ListNotations.
Open Scope Z_scope.

Definition alarms (l : list out) : list Z := flat_map (fun o => match o with OAlarm t => [t] | _ => [] end) l.

Definition lw_cfg := mkCfg [10; 30; 30] 70 4 0 2000 [2000; 3000; 4500; 6750] [700; 900; 1100; 1300; 1500].
Definition lw_events : list event :=
  [ EvStart 0;
    EvDeliver 10 (mkM 1 1 PREPARE [1] 0 (Some (mkJ 0 COMMIT [] [1; 2]))) None;
    EvDeliver 11 (mkM 1 1 CONVERGE [1] 5 (Some (mkJ 0 COMMIT [] [1; 2]))) None;      (* skip to round 1 *)
    EvAlarm 3011 None;                                                               (* CONVERGE timeout: PREPARE, alarm 6011 *)
    EvDeliver 4500 (mkM 2 1 CONVERGE [1] 7 (Some (mkJ 0 COMMIT [] [1; 2]))) None;   (* first rebroadcast deadline 5200 *)
    EvAlarm 5200 None;                                                               (* rebroadcast; next deadline 6100 >= 6011: alarm reverted to 6011 *)
    EvAlarm 6011 None ].                                                             (* phase alarm: deadline 6100 not reached -> nothing *)
Example alarm_pending_refuted :
  let f := snd (run_hist lw_cfg (new_instance [1; 2] 0) lw_events) in
  i_phase f = PREPARE /\ i_round f = 1 /\ i_err f = None /\ i_out f = [] /\ i_rtimeout f = Some 6100 /\ i_ptimeout f = 6011 /\ alarms (fst (run_hist lw_cfg (new_instance [1; 2] 0) lw_events)) = [2000; 3011; 6011; 5200; 6011].
Proof. vm_compute. repeat split. Qed.
