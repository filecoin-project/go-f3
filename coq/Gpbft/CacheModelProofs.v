(* The invariant behind the cache theorems of C05 (Properties/C05.v): for every sequence of Add / Contains /
   RemoveGroupsLessThan on a GroupedSet (any capacities), every key held by a group was added to that group by one of the
   operations.  Eviction (generations within a Set, least-recently-used groups, pooled Sets) can only forget.  This is
   what the history-independence theorem of C05 needs from the cache (ValidatorProofs: the verdict is the same for ANY
   cache all of whose entries were validated). *)
From Coq Require Import ZArith List Bool.
From F3 Require Import ListX CacheModel.
Import ListNotations.
Open Scope Z_scope.

Lemma memZ_In x l : memZ x l = true <-> In x l.
Proof. apply existsb_Zeqb_In. Qed.

Definition keys (s : cset) : list Z := cs_flip s ++ cs_flop s.
Lemma cs_contains_keys s k : cs_contains s k = true <-> In k (keys s).
Proof. unfold cs_contains, keys. rewrite orb_true_iff, !memZ_In, in_app_iff. reflexivity. Qed.

Lemma cs_add_keys ms s k x : In x (keys (fst (cs_contains_or_add ms s k))) -> In x (keys s) \/ x = k.
Proof.
  unfold cs_contains_or_add. destruct (cs_contains s k); cbn [fst]; [left; assumption|].
  destruct (Nat.max 1 ms <=? length (k :: cs_flip s))%nat; unfold keys; cbn [fst cs_flip cs_flop app]; intros H.
  - destruct H as [<-|H]; [right; reflexivity|left; apply in_or_app; left; exact H].
  - destruct H as [<-|H]; [right; reflexivity|left; exact H].
Qed.
Lemma cs_add_has ms s k : cs_contains (fst (cs_contains_or_add ms s k)) k = true.
Proof.
  unfold cs_contains_or_add. destruct (cs_contains s k) eqn:E; cbn [fst]; [exact E|].
  destruct (Nat.max 1 ms <=? length (k :: cs_flip s))%nat; apply cs_contains_keys; unfold keys; cbn [cs_flip cs_flop app]; left; reflexivity.
Qed.
Lemma cs_add_had ms s k : snd (cs_contains_or_add ms s k) = cs_contains s k.
Proof. unfold cs_contains_or_add. destruct (cs_contains s k); [reflexivity|]. destruct (_ <=? _)%nat; reflexivity. Qed.

(* Add without the let-pattern *)
Lemma g_add_eq mg ms c g k :
  g_add mg ms c g k =
  match g_find (g_groups c) g with
  | Some s => (mkG (g_update (g_groups c) g (fst (cs_contains_or_add ms s k))), negb (cs_contains s k))
  | None => (mkG ((g, fst (cs_contains_or_add ms cs_empty k)) ::
                  (if (mg <=? length (g_groups c))%nat then removelast (g_groups c) else g_groups c)), true)
  end.
Proof.
  unfold g_add. destruct (g_find (g_groups c) g) as [s|].
  - rewrite <- (cs_add_had ms s k). now destruct (cs_contains_or_add ms s k).
  - change true with (negb (cs_contains cs_empty k)). rewrite <- (cs_add_had ms cs_empty k). now destruct (cs_contains_or_add ms cs_empty k).
Qed.

Lemma g_find_In l g s : g_find l g = Some s -> In (g, s) l.
Proof.
  induction l as [|[h t] r IH]; cbn; [discriminate|]. destruct (Z.eqb_spec h g) as [->|Hne]; [intros E; injection E as ->; left; reflexivity|intros E; right; exact (IH E)].
Qed.
Lemma g_find_update_same l g s s' : g_find l g = Some s -> g_find (g_update l g s') g = Some s'.
Proof.
  induction l as [|[h t] r IH]; cbn; [discriminate|]. destruct (Z.eqb_spec h g) as [->|Hne]; cbn.
  - now rewrite Z.eqb_refl.
  - destruct (Z.eqb_spec h g); [contradiction|exact IH].
Qed.
Lemma g_remove_incl l g : incl (g_remove l g) l.
Proof. induction l as [|[h t] r IH]; cbn; [apply incl_refl|]. destruct (h =? g); [apply incl_tl, incl_refl|]. intros x [<-|Hx]; [left; reflexivity|right; exact (IH x Hx)]. Qed.
Lemma g_update_In l g s' h t : In (h, t) (g_update l g s') -> In (h, t) l \/ (h = g /\ t = s').
Proof.
  induction l as [|[a b] r IH]; cbn; [intros []|]. destruct (Z.eqb_spec a g) as [->|Hne].
  - intros [E|H]; [injection E as <- <-; right; split; reflexivity|left; right; exact H].
  - intros [E|H]; [left; left; exact E|destruct (IH H) as [H1|H1]; [left; right; exact H1|right; exact H1]].
Qed.
Lemma removelast_incl {A} (l : list A) : incl (removelast l) l.
Proof. induction l as [|x [|y r] IH]; cbn; [apply incl_refl|intros z []|]. intros z [<-|Hz]; [left; reflexivity|right; exact (IH z Hz)]. Qed.

(* the invariant: every key of every group was added to THAT group by one of the operations `all` *)
Definition GInv (all : list cop) (c : gset) : Prop :=
  forall g s, In (g, s) (g_groups c) -> forall k, In k (keys s) -> In (CAdd g k) all.

Lemma GInv_empty all : GInv all g_empty.
Proof. intros g s []. Qed.

Theorem cstep_inv mg ms all c o : GInv all c -> In o all -> GInv all (fst (cstep mg ms c o)).
Proof.
  intros HI Ho. destruct o as [g k|g k|b]; cbn [cstep].
  - rewrite g_add_eq. destruct (g_find (g_groups c) g) as [s|] eqn:Ef; cbn [fst g_groups]; intros h t Hin x Hx.
    + destruct (g_update_In _ _ _ _ _ Hin) as [H|(-> & ->)]; [exact (HI h t H x Hx)|].
      destruct (cs_add_keys ms s k x Hx) as [H| ->]; [exact (HI g s (g_find_In _ _ _ Ef) x H)|exact Ho].
    + destruct Hin as [[= <- <-]|Hin].
      * destruct (cs_add_keys ms cs_empty k x Hx) as [[]| ->]. exact Ho.
      * apply (HI h t); [|exact Hx]. destruct (mg <=? length (g_groups c))%nat; [apply removelast_incl; exact Hin|exact Hin].
  - unfold g_contains. destruct (g_find (g_groups c) g) as [s|] eqn:Ef; cbn [fst g_groups]; [|exact HI].
    intros h t [[= <- <-]|Hin] x Hx; [exact (HI g s (g_find_In _ _ _ Ef) x Hx)|exact (HI h t (g_remove_incl _ _ _ Hin) x Hx)].
  - unfold g_remove_lt. cbn [fst g_groups]. intros h t Hin x Hx. apply filter_In in Hin. exact (HI h t (proj1 Hin) x Hx).
Qed.

Fixpoint crun (mg ms : nat) (c : gset) (ops : list cop) : gset :=
  match ops with [] => c | o :: r => crun mg ms (fst (cstep mg ms c o)) r end.

Lemma crun_inv mg ms all ops : forall c, incl ops all -> GInv all c -> GInv all (crun mg ms c ops).
Proof.
  induction ops as [|o r IH]; intros c Hi HI; cbn [crun]; [exact HI|].
  apply IH; [exact (fun x Hx => Hi x (or_intror Hx))|apply cstep_inv; [exact HI|apply Hi; left; reflexivity]].
Qed.

Lemma crun_GInv mg ms ops : GInv ops (crun mg ms g_empty ops).
Proof. exact (crun_inv mg ms ops ops g_empty (incl_refl ops) (GInv_empty ops)). Qed.

Example cache_example :
  crun_ok 2 2 g_empty [(CAdd 5 1, true); (CAdd 5 1, false); (CContains 5 1, true); (CAdd 5 2, true); (CAdd 5 3, true); (CAdd 5 4, true);
                       (CContains 5 1, false); (CContains 5 4, true); (CAdd 6 1, true); (CAdd 7 1, true); (CContains 5 4, false); (CContains 6 1, true);
                       (CRemoveLt 7, true); (CContains 6 1, false); (CContains 7 1, true)] = true.
Proof. reflexivity. Qed.
