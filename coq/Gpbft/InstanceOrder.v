(* Layer N, protocol discipline (C07), order of emissions: progress never moves backwards and every broadcast is emitted at
   a strictly later progress point, hence at most one message per (round, step).  The step theorems need Inv (kept from a
   fresh instance on) and wfe (a DECIDE message carries round 0, what validation enforces). *)
From Coq Require Import ZArith List Bool Lia.
From F3 Require Import Instance.
From F3 Require Export InstanceCases.
Import ListNotations.
Open Scope Z_scope.

Definition K := (Z * Z)%type.
Definition pkey (i : inst) : K := (i_round i, phase_code (i_phase i)).
(* strict progress order; once in DECIDE (code 5) or later the round is frozen *)
Definition klt (a b : K) : Prop :=
  (fst a < fst b \/ (fst a = fst b /\ snd a < snd b)) /\ (5 <= snd a -> fst b = fst a).
Definition kle (a b : K) : Prop := a = b \/ klt a b.

Lemma klt_trans a b c : klt a b -> klt b c -> klt a c.
Proof. unfold klt; intros [H1 H2] [H3 H4]; split; [|intros H5; specialize (H2 H5)]; lia. Qed.
Lemma kle_refl a : kle a a. Proof. now left. Qed.
Lemma kle_trans a b c : kle a b -> kle b c -> kle a c.
Proof. intros [->|H1] [->|H2]; [now left|now right|now right|right; eapply klt_trans; eauto]. Qed.
Lemma klt_kle_trans a b c : klt a b -> kle b c -> klt a c.
Proof. intros H [->|H2]; [assumption|eapply klt_trans; eauto]. Qed.
Lemma kle_klt_trans a b c : kle a b -> klt b c -> klt a c.
Proof. intros [->|H1] H; [assumption|eapply klt_trans; eauto]. Qed.
Lemma klt_irrefl a : ~ klt a a. Proof. unfold klt; lia. Qed.

(* the key a broadcast is emitted at: DECIDE votes always carry round 0 *)
Definition okey (r : Z) (p : phase) (k : K) : Prop :=
  (p = DECIDE /\ r = 0 /\ snd k = 5) \/ (p <> DECIDE /\ k = (r, phase_code p)).

Fixpoint chain_ok (p0 : K) (l : list out) (p1 : K) : Prop :=
  match l with
  | [] => kle p0 p1
  | OBroadcast r p _ _ _ :: rest => exists k, klt p0 k /\ okey r p k /\ chain_ok k rest p1
  | _ :: rest => chain_ok p0 rest p1
  end.

Lemma chain_ok_kle p0 l p1 : chain_ok p0 l p1 -> kle p0 p1.
Proof.
  revert p0; induction l as [|o l IH]; intros p0 H; [exact H|].
  destruct o; simpl in H; auto.
  destruct H as (k & Hk & _ & Hr). right. eapply klt_kle_trans; eauto.
Qed.
Lemma chain_ok_weaken p0 p0' l p1 : kle p0' p0 -> chain_ok p0 l p1 -> chain_ok p0' l p1.
Proof.
  revert p0 p0'; induction l as [|o l IH]; intros p0 p0' Hle H; simpl in *.
  - eapply kle_trans; eauto.
  - destruct o; [|eapply IH; eauto|eapply IH; eauto].
    destruct H as (k & Hk & Ho & Hr). exists k; split; [eapply kle_klt_trans; eauto|split; assumption].
Qed.
Lemma chain_ok_app p0 l1 p1 l2 p2 : chain_ok p0 l1 p1 -> chain_ok p1 l2 p2 -> chain_ok p0 (l1 ++ l2) p2.
Proof.
  revert p0; induction l1 as [|o l1 IH]; intros p0 H1 H2; simpl in *.
  - eapply chain_ok_weaken; eauto.
  - destruct o; [|eapply IH; eauto|eapply IH; eauto].
    destruct H1 as (k & Hk & Ho & Hr). exists k; split; [assumption|split; [assumption|eapply IH; eauto]].
Qed.

Section Cfg.
Variable c : config.

(* `added` is newest first *)
Definition Rc (i i' : inst) : Prop := exists added, i_out i' = added ++ i_out i /\ chain_ok (pkey i) (rev added) (pkey i').
Definition decided (i i' : inst) : Prop :=
  exists v signers, i_term i' = Some (build_just 0 DECIDE v signers) /\
                    q_find_sq_value (i_decision i) = FsvSome v /\ q_find_sq_for c (i_decision i) v = FsqSome signers.
(* t = false excludes termination: R false is there to read non-termination off the relation (R_nt, dec_clear);
   every function but tryDecide satisfies both *)
Definition Tm (t : bool) (i i' : inst) : Prop :=
  (i_term i' = i_term i /\ (i_phase i' = TERMINATED -> i_phase i = TERMINATED)) \/ (t = true /\ decided i i').
(* i_decision is frozen: a DECIDE delivery is therefore not an R-step (receive_one_decide) *)
Definition Fr (t : bool) (i i' : inst) : Prop :=
  (forall e, i_err i = Some e -> i_err i' = Some e) /\ i_decision i' = i_decision i /\
  incl (i_cands i) (i_cands i') /\ i_input i' = i_input i /\ Tm t i i'.
Definition R (t : bool) (i i' : inst) : Prop := Rc i i' /\ Fr t i i'.

Lemma Rc_intro added i i' : i_out i' = added ++ i_out i -> chain_ok (pkey i) (rev added) (pkey i') -> Rc i i'.
Proof. intros; exists added; auto. Qed.
Lemma Rc_refl i : Rc i i. Proof. apply (Rc_intro []); simpl; auto using kle_refl. Qed.
Lemma Rc_trans a b c0 : Rc a b -> Rc b c0 -> Rc a c0.
Proof.
  intros (l1 & E1 & C1) (l2 & E2 & C2). apply (Rc_intro (l2 ++ l1)).
  - rewrite E2, E1, app_assoc; reflexivity.
  - rewrite rev_app_distr. eapply chain_ok_app; eauto.
Qed.
Lemma Rc_kle a b : Rc a b -> kle (pkey a) (pkey b).
Proof. intros (l & _ & C). eapply chain_ok_kle; eauto. Qed.

Lemma Tm_trans t a b c0 : i_decision b = i_decision a -> Tm t a b -> Tm t b c0 -> Tm t a c0.
Proof.
  intros Ed [[E1 P1]|(Ht & v & sg & E1 & F1 & F2)] [[E2 P2]|(Ht' & v' & sg' & E2 & G1 & G2)].
  - left. split; [congruence|auto].
  - right. split; [exact Ht'|]. exists v', sg'. rewrite <- Ed. repeat split; assumption.
  - right. split; [exact Ht|]. exists v, sg. repeat split; congruence.
  - right. split; [exact Ht'|]. exists v', sg'. rewrite <- Ed. repeat split; assumption.
Qed.
Lemma R_refl t i : R t i i.
Proof. split; [apply Rc_refl|]. split; [auto|split; [reflexivity|split; [apply incl_refl|split; [reflexivity|left; auto]]]]. Qed.
Lemma R_trans t a b c0 : R t a b -> R t b c0 -> R t a c0.
Proof.
  intros [C1 (H1 & H2 & H3 & H4 & H4t)] [C2 (H5 & H6 & H7 & H8 & H8t)]. split; [eapply Rc_trans; eauto|].
  split; [intros e H; auto|split; [congruence|split; [eapply incl_tran; eauto|split; [congruence|eapply Tm_trans; eauto]]]].
Qed.
Lemma R_kle t a b : R t a b -> kle (pkey a) (pkey b).
Proof. intros [H _]; apply Rc_kle; exact H. Qed.
Lemma R_nt i i' : R false i i' -> i_phase i <> TERMINATED -> i_phase i' <> TERMINATED.
Proof. intros [_ (_ & _ & _ & _ & [[_ H]|[H _]])] Hn; [auto|discriminate H]. Qed.

Definition frame (i i' : inst) : Prop :=
  (exists l, i_out i' = l ++ i_out i /\ Forall not_bcast l) /\ i_err i' = i_err i /\ i_decision i' = i_decision i /\
  incl (i_cands i) (i_cands i') /\ i_input i' = i_input i /\ i_term i' = i_term i.
Lemma frame_intro i i' : i_out i' = i_out i -> i_err i' = i_err i -> i_decision i' = i_decision i ->
  incl (i_cands i) (i_cands i') -> i_input i' = i_input i -> i_term i' = i_term i -> frame i i'.
Proof. intros O. repeat split; try assumption. exists []. split; [exact O|constructor]. Qed.
Lemma frame_trans a b d : frame a b -> frame b d -> frame a d.
Proof.
  intros ((l1 & O1 & F1) & A1 & A2 & A3 & A4 & A5) ((l2 & O2 & F2) & B1 & B2 & B3 & B4 & B5).
  split; [exists (l2 ++ l1); split; [rewrite O2, O1, app_assoc; reflexivity|apply Forall_app; split; assumption]|].
  repeat split; try congruence. eapply incl_tran; eauto.
Qed.
Lemma frame_quiet i i' : quiet i i' -> frame i i'.
Proof.
  intros [E H]. destruct (core_fields _ _ E) as (E1 & _ & _ & E4 & _ & _ & E7 & _ & _ & E10 & E11).
  split; [exact H|]. repeat split; try assumption. rewrite E4. apply incl_refl.
Qed.
Lemma frame_progress i r ph : frame i (set_progress i r ph). Proof. apply frame_intro; try reflexivity. apply incl_refl. Qed.
Lemma frame_enter i r ph q : frame i (enter c i r ph q).
Proof. eapply frame_trans; [apply frame_progress|apply frame_quiet, quiet_enter]. Qed.

Lemma quiet_chain p0 l : Forall not_bcast l -> chain_ok p0 (rev l) p0.
Proof.
  intros Hl. apply Forall_rev in Hl. induction Hl as [|o r Ho _ IH]; cbn; [apply kle_refl|].
  destruct o; cbn in Ho; try contradiction; exact IH.
Qed.
Lemma R_frame t i i' : frame i i' -> kle (pkey i) (pkey i') -> (i_phase i' = TERMINATED -> i_phase i = TERMINATED) -> R t i i'.
Proof.
  intros ((l & O & Hl) & E1 & E2 & E3 & E4 & E5) Hk Hp. split.
  - apply (Rc_intro l); [exact O|]. rewrite <- (app_nil_r (rev l)). eapply chain_ok_app; [apply quiet_chain; exact Hl|exact Hk].
  - split; [intros e H; congruence|split; [exact E2|split; [exact E3|split; [exact E4|left; split; assumption]]]].
Qed.
Lemma R_advance_bcast t i i1 r p v j tk :
  frame i i1 -> klt (pkey i) (pkey i1) -> okey r p (pkey i1) -> i_phase i1 <> TERMINATED -> R t i (emit i1 (OBroadcast r p v j tk)).
Proof.
  intros ((l & O & Hl) & E1 & E2 & E3 & E4 & E5) Hlt Hk Hp. split.
  - apply (Rc_intro (OBroadcast r p v j tk :: l)); [cbn; rewrite O; reflexivity|].
    cbn [rev]. eapply chain_ok_app; [apply quiet_chain; exact Hl|]. cbn. exists (pkey i1). repeat split; auto; apply kle_refl || apply Hlt.
  - split; [intros e H; cbn; congruence|split; [exact E2|split; [exact E3|split; [exact E4|left; split; [exact E5|intros H; contradiction]]]]].
Qed.
Lemma R_fail t i e : R t i (fail i e).
Proof.
  split; [apply (Rc_intro []); [reflexivity|apply kle_refl]|]. split; [intros e0 H; apply err_fail_keep; exact H|].
  split; [reflexivity|split; [apply incl_refl|split; [reflexivity|left; auto]]].
Qed.
Lemma R_quiet t i i' : quiet i i' -> R t i i'.
Proof.
  intros H. destruct (core_fields _ _ (quiet_core _ _ H)) as (_ & _ & _ & _ & _ & _ & _ & E8 & E9 & _).
  apply R_frame; [apply frame_quiet; exact H|unfold pkey; rewrite E8, E9; apply kle_refl|rewrite E9; auto].
Qed.

(* frame with progress and outputs fixed *)
Definition same (i i' : inst) : Prop :=
  i_out i' = i_out i /\ pkey i' = pkey i /\ i_err i' = i_err i /\ i_decision i' = i_decision i /\
  incl (i_cands i) (i_cands i') /\ i_input i' = i_input i /\ i_term i' = i_term i.
Lemma same_trans a b c0 : same a b -> same b c0 -> same a c0.
Proof. intros (A1 & A2 & A3 & A4 & A5 & A6 & A7) (B1 & B2 & B3 & B4 & B5 & B6 & B7); repeat split; try congruence. eapply incl_tran; eauto. Qed.
Lemma same_phase i i' : same i i' -> i_phase i' = i_phase i.
Proof. intros (_ & E & _). apply phase_code_inj. change (snd (pkey i') = snd (pkey i)). rewrite E; reflexivity. Qed.
Lemma frame_same i i' : same i i' -> frame i i'.
Proof. intros (E1 & E2 & E3 & E4 & E5 & E6 & E7). apply frame_intro; assumption. Qed.
Lemma R_same t i i' : same i i' -> R t i i'.
Proof.
  intros S. apply R_frame; [apply frame_same; exact S| |rewrite (same_phase _ _ S); auto].
  destruct S as (_ & -> & _). apply kle_refl.
Qed.
Lemma same_set_pv i p v : same i (set_pv i p v). Proof. repeat split; apply incl_refl. Qed.
Lemma same_set_cands i l : incl (i_cands i) l -> same i (set_cands i l). Proof. intros H. repeat split. exact H. Qed.
Lemma same_set_round_state i r s : same i (set_round_state i r s). Proof. repeat split; apply incl_refl. Qed.
Lemma same_set_quality i q : same i (set_quality i q). Proof. repeat split; apply incl_refl. Qed.
Lemma same_add_candidate_prefixes i v : same i (add_candidate_prefixes i v).
Proof. destruct (acp_nf i v) as (l & A & _ & -> & _). apply same_set_cands; exact A. Qed.
Lemma same_settle i : same i (settle i).
Proof. destruct (settle_nf i) as (l & A & _ & -> & _). eapply same_trans; [apply same_set_cands; exact A|apply same_set_pv]. Qed.
Lemma same_adopted i l p v : incl (i_cands i) l -> same i (set_pv (set_cands i l) p v).
Proof. intros H. eapply same_trans; [apply same_set_cands; exact H|apply same_set_pv]. Qed.

Lemma R_try_rebroadcast t i : R t i (try_rebroadcast c i). Proof. apply R_quiet, quiet_try_rebroadcast. Qed.

Lemma okey_same r p : p <> DECIDE -> okey r p (r, phase_code p). Proof. intros H; right; auto. Qed.
Lemma R_enter_bcast t i r ph q v j tk :
  klt (pkey i) (r, phase_code ph) -> ph <> DECIDE -> ph <> TERMINATED -> R t i (emit (enter c i r ph q) (OBroadcast r ph v j tk)).
Proof. intros Hlt Hd Ht. apply R_advance_bcast; [apply frame_enter|exact Hlt|apply okey_same; exact Hd|exact Ht]. Qed.
Lemma R_enter t i r ph q : klt (pkey i) (r, phase_code ph) -> ph <> TERMINATED -> R t i (enter c i r ph q).
Proof. intros Hlt Ht. apply R_frame; [apply frame_enter|right; exact Hlt|intros H; contradiction]. Qed.

Lemma R_begin_prepare t i j : phase_code (i_phase i) < 3 -> R t i (begin_prepare c i j).
Proof.
  intros H. apply (R_enter_bcast t i (i_round i) PREPARE false); [|discriminate|discriminate].
  unfold klt, pkey; cbn. lia.
Qed.
Lemma pkey_begin_prepare i j : pkey (begin_prepare c i j) = (i_round i, 3).
Proof. reflexivity. Qed.

Lemma R_begin_commit t i : phase_code (i_phase i) < 4 -> R t i (begin_commit c i).
Proof.
  intros H. assert (Hlt : klt (pkey i) (i_round i, phase_code COMMIT)) by (unfold klt, pkey; cbn; lia).
  apply begin_commit_cases; intros;
    first [apply (R_enter_bcast t i (i_round i) COMMIT false); [exact Hlt|discriminate|discriminate]
          |eapply R_trans; [apply R_enter; [exact Hlt|discriminate]|apply R_fail]].
Qed.

Lemma R_decide_bcast t i i1 v j : same (set_progress i (i_round i) DECIDE) i1 -> phase_code (i_phase i) < 5 ->
  R t i (emit i1 (OBroadcast 0 DECIDE v j false)).
Proof.
  intros S H. pose proof S as (_ & Ek & _).
  apply R_advance_bcast; [eapply frame_trans; [apply frame_progress|apply frame_same; exact S]| | |rewrite (same_phase _ _ S); discriminate].
  - rewrite Ek. unfold klt, pkey; cbn; lia.
  - left. rewrite Ek. auto.
Qed.
Lemma R_begin_decide t i round : phase_code (i_phase i) < 5 -> R t i (begin_decide c i round).
Proof.
  intros H. apply begin_decide_cases; intros.
  - apply R_decide_bcast; [repeat split; apply incl_refl|exact H].
  - eapply R_trans; [|apply R_fail]. apply R_frame; [apply frame_progress|right; unfold klt, pkey; cbn; lia|discriminate].
Qed.
Lemma R_skip_to_decide t i v j : phase_code (i_phase i) < 5 -> R t i (skip_to_decide i v j).
Proof. intros H. apply R_decide_bcast; [repeat split; apply incl_refl|exact H]. Qed.

(* i0 is the state before the round was advanced *)
Lemma R_begin_converge t i0 i j :
  frame i0 i -> klt (pkey i0) (i_round i, 2) -> kle (pkey i0) (pkey i) -> (i_phase i = TERMINATED -> i_phase i0 = TERMINATED) ->
  R t i0 (begin_converge c i j).
Proof.
  intros F Hlt Hle Hnt. apply begin_converge_cases; intros.
  - eapply R_trans; [apply R_frame; eassumption|apply R_fail].
  - apply R_advance_bcast; [|exact Hlt|apply (okey_same (i_round i) CONVERGE); discriminate|discriminate].
    eapply frame_trans; [exact F|]. eapply frame_trans; [apply frame_enter|apply frame_same, same_set_round_state].
Qed.

Lemma R_begin_next_round t i : i_phase i = COMMIT -> R t i (begin_next_round c i).
Proof.
  intros Hp.
  assert (Hlt : klt (pkey i) (i_round i + 1, 2)) by (unfold klt, pkey; cbn; rewrite Hp; cbn; lia).
  assert (Hle : kle (pkey i) (pkey (set_progress i (i_round i + 1) (i_phase i)))) by (right; unfold klt, pkey; cbn; rewrite Hp; cbn; lia).
  assert (Hnt : i_phase (set_progress i (i_round i + 1) (i_phase i)) = TERMINATED -> i_phase i = TERMINATED) by auto.
  apply begin_next_round_cases; intros;
    first [apply R_begin_converge; [apply frame_progress|exact Hlt|exact Hle|exact Hnt]
          |eapply R_trans; [apply R_frame; [apply frame_progress|exact Hle|exact Hnt]|apply R_fail]].
Qed.

Lemma R_skip_to_round t i round v j : i_round i < round -> phase_code (i_phase i) < 5 -> R t i (skip_to_round c i round v j).
Proof.
  intros Hr Hp. destruct (skip_to_round_spec c i round v j) as (l & p & w & -> & A & _).
  apply R_begin_converge.
  - eapply frame_trans; [apply frame_progress|apply frame_same, same_adopted; exact A].
  - unfold klt, pkey; cbn. lia.
  - right. unfold klt, pkey; cbn. lia.
  - cbn. auto.
Qed.

Lemma R_terminate i v signers :
  phase_code (i_phase i) < 6 -> q_find_sq_value (i_decision i) = FsvSome v -> q_find_sq_for c (i_decision i) v = FsqSome signers ->
  R true i (terminate i (build_just 0 DECIDE v signers)).
Proof.
  intros H F1 F2. split.
  - apply (Rc_intro []); [reflexivity|]. simpl. right. unfold klt, pkey; cbn. lia.
  - split; [intros e He; exact He|split; [reflexivity|split; [apply incl_refl|split; [reflexivity|]]]].
    right. split; [reflexivity|]. exists v, signers. repeat split; assumption.
Qed.

Lemma R_try_quality t i : i_phase i = QUALITY -> R t i (try_quality c i).
Proof.
  intros Hp. apply try_quality_cases; intros; [apply R_refl|].
  eapply R_trans; [apply R_same, same_settle|]. apply R_begin_prepare. rewrite (same_phase _ _ (same_settle i)), Hp. cbn. lia.
Qed.
Lemma R_try_converge t i : i_phase i = CONVERGE -> R t i (try_converge c i).
Proof.
  intros Hp. apply try_converge_cases; intros; [apply R_refl|apply R_try_rebroadcast|apply R_fail|].
  eapply R_trans; [apply R_same, same_adopted; eassumption|]. apply R_begin_prepare. cbn. rewrite Hp. cbn. lia.
Qed.
Lemma R_try_prepare t i : i_phase i = PREPARE -> R t i (try_prepare c i).
Proof.
  intros Hp. apply try_prepare_cases; intros; [| |apply R_refl|apply R_try_rebroadcast];
    (eapply R_trans; [apply R_same, same_set_pv|]; apply R_begin_commit; cbn; rewrite Hp; cbn; lia).
Qed.
Lemma R_try_commit t i round sway : phase_code (i_phase i) < 5 -> R t i (try_commit c i round sway).
Proof.
  intros Hp. apply try_commit_cases; intros.
  - apply R_fail.
  - eapply R_trans; [apply R_same, same_set_pv|apply R_begin_decide; exact Hp].
  - apply R_refl.
  - apply R_begin_next_round; assumption.
  - eapply R_trans; [apply R_same, same_adopted; eassumption|apply R_begin_next_round; assumption].
  - apply R_begin_next_round; assumption.
  - apply R_try_rebroadcast.
Qed.

Definition dec_clear (i : inst) : Prop := i_phase i = DECIDE -> q_find_sq_value (i_decision i) = FsvNone.
Lemma R_try_decide t i : (t = false -> dec_clear i) -> i_phase i = DECIDE -> R t i (try_decide c i).
Proof.
  intros Hd Hp. apply try_decide_cases; intros; [apply R_fail| |apply R_fail|apply R_try_rebroadcast].
  destruct t; [apply R_terminate; [rewrite Hp; cbn; lia|assumption|assumption]|].
  rewrite (Hd eq_refl Hp) in H. discriminate H.
Qed.
Lemma R_try_current_phase t i sway : (t = false -> dec_clear i) -> R t i (try_current_phase c i sway).
Proof.
  intros Hd. apply try_current_phase_cases; intros Hp.
  - apply R_fail.
  - apply R_try_quality; assumption.
  - apply R_try_converge; assumption.
  - apply R_try_prepare; assumption.
  - apply R_try_commit; rewrite Hp; cbn; lia.
  - apply R_try_decide; assumption.
  - apply R_refl.
Qed.

Lemma R_begin_quality t i : R t i (begin_quality c i).
Proof.
  apply begin_quality_cases; intros Hc; [apply R_fail|].
  apply (R_enter_bcast t i (i_round i) QUALITY true); [|discriminate|discriminate].
  unfold klt, pkey; cbn. rewrite Hc; cbn. lia.
Qed.

Lemma R_post_receive t i round : phase_code (i_phase i) < 6 -> R t i (post_receive c i round).
Proof.
  intros Hnt. apply post_receive_cases; intros; [apply R_refl|].
  apply R_skip_to_round; [assumption|]. destruct (i_phase i); cbn in *; try lia; congruence.
Qed.

Lemma kle_phase n a b : 5 <= n -> kle a b -> n <= snd a -> n <= snd b.
Proof. intros Hn [->|[[H|[H1 H2]] H3]] H5; lia. Qed.
Lemma kle_round a b : kle a b -> fst a <= fst b.
Proof. intros [->|[[H|[H1 H2]] H3]]; lia. Qed.

Lemma R_receive_one t i m sway : (t = false -> dec_clear i) -> m_phase m <> DECIDE -> R t i (fst (receive_one c i m sway)).
Proof.
  intros Hd Hm.
  assert (G : forall r s sw, R t i (try_current_phase c (set_round_state i r s) sw)).
  { intros r s sw. eapply R_trans; [apply R_same, same_set_round_state|apply R_try_current_phase; exact Hd]. }
  apply receive_one_cases; cbv zeta; try (intros; apply R_fail); try congruence.
  - apply R_refl.
  - intros _ _. split; intros _.
    + apply R_same. eapply same_trans; [apply same_set_quality|]. eapply same_trans; [apply same_set_round_state|apply same_add_candidate_prefixes].
    + eapply R_trans; [apply R_same, same_set_quality|]. eapply R_trans; [apply R_same, same_set_round_state|apply R_try_current_phase; exact Hd].
  - intros. apply G.
  - intros. apply G.
  - intros _ Ht. split; intros Hdc; [apply G|].
    assert (R1 : R t i (try_commit c (set_round_state i (m_round m) (mkR (r_conv (get_round i (m_round m))) (r_prep (get_round i (m_round m)))
                    (comm_update c (r_comm (get_round i (m_round m))) (m_sender m) (m_value m) (m_just m)))) (m_round m) sway)).
    { eapply R_trans; [apply R_same, same_set_round_state|]. apply R_try_commit. cbn [i_phase set_round_state]. apply phase_lt5; assumption. }
    split; [exact R1|]. intros _ Hp _. eapply R_trans; [exact R1|apply R_try_current_phase]. intros _ E. congruence.
Qed.

Lemma nt_receive_one i m sway :
  m_phase m <> DECIDE -> dec_clear i -> i_phase i <> TERMINATED -> i_phase (fst (receive_one c i m sway)) <> TERMINATED.
Proof. intros Hm Hd Hn. apply (R_nt i); [apply R_receive_one; auto|exact Hn]. Qed.

Definition Fc (i i' : inst) : Prop := incl (i_cands i) (i_cands i') /\ i_input i' = i_input i.
Lemma Fc_R t i i' : R t i i' -> Fc i i'. Proof. intros [_ (_ & _ & H1 & H2 & _)]. split; assumption. Qed.

Lemma try_decide_clear i :
  i_phase i = DECIDE -> let i' := try_decide c i in
  i_phase i' = DECIDE -> i_err i' = None -> q_find_sq_value (i_decision i') = FsvNone.
Proof.
  intros Hp. cbv zeta. apply try_decide_cases; intros; try (exfalso; eapply err_fail_some; eassumption).
  - discriminate.
  - destruct (core_fields _ _ (quiet_core _ _ (quiet_try_rebroadcast c i))) as (_ & _ & _ & _ & _ & _ & -> & _). assumption.
Qed.

Lemma receive_one_decide i m sway :
  m_phase m = DECIDE -> m_round m = 0 -> i_phase i <> TERMINATED ->
  let i' := fst (receive_one c i m sway) in
  Rc i i' /\ (forall e, i_err i = Some e -> i_err i' = Some e) /\ 5 <= phase_code (i_phase i') /\
  (i_phase i' = DECIDE -> i_err i' = None -> q_find_sq_value (i_decision i') = FsvNone) /\ Fc i i' /\
  i_decision i' = q_receive c (i_decision i) (m_sender m) (m_value m) /\
  (i_term i' = i_term i \/
   exists v sg, i_term i' = Some (build_just 0 DECIDE v sg) /\
                q_find_sq_value (i_decision i') = FsvSome v /\ q_find_sq_for c (i_decision i') v = FsqSome sg).
Proof.
  intros Hm Hr Ht. unfold receive_one.
  apply phase_eqb_false in Ht. rewrite Ht.
  rewrite Hm. replace (phase_eqb DECIDE CONVERGE) with false by reflexivity. replace (phase_eqb DECIDE PREPARE) with false by reflexivity.
  rewrite andb_false_r. unfold is_spammable. rewrite Hr. replace (0 <? 0) with false by reflexivity. rewrite !andb_false_r.
  cbv zeta. cbn [fst].
  match goal with |- context [skip_to_decide ?x _ _] => set (i1 := x) end.
  match goal with |- context [try_current_phase c ?x sway] => set (i2 := x) end.
  assert (H2 : R true i1 i2 /\ i_phase i2 = DECIDE).
  { unfold i2. destruct (negb (phase_eqb (i_phase i1) DECIDE)) eqn:Hd.
    - split; [|reflexivity]. apply R_skip_to_decide. apply negb_true_iff, phase_eqb_false in Hd. apply phase_eqb_false in Ht.
      apply phase_lt5; assumption.
    - split; [apply R_refl|]. apply negb_false_iff, phase_eqb_true in Hd. exact Hd. }
  destruct H2 as (H2 & H2p).
  pose proof (R_try_current_phase true i2 sway ltac:(discriminate)) as H3.
  pose proof (R_trans _ _ _ _ H2 H3) as [C13 (E13 & D13 & K13 & I13 & T13)].
  split; [|split; [|split; [|split; [|split; [|split]]]]].
  - destruct C13 as (added & O & Ck). exists added. split; assumption.
  - exact E13.
  - apply R_kle in H3. apply (kle_phase 5) in H3; [exact H3|lia|]. cbn. rewrite H2p. cbn. lia.
  - apply try_current_phase_cases; intros Ep; try congruence. apply try_decide_clear. exact H2p.
  - split; assumption.
  - exact D13.
  - destruct T13 as [[E _]|(_ & v & sg & E & F1 & F2)]; [left; exact E|right]. exists v, sg. rewrite D13. repeat split; assumption.
Qed.

Definition wfe (e : event) : Prop :=
  match e with EvDeliver _ m _ => m_phase m = DECIDE -> m_round m = 0 | _ => True end.

(* DECIDE votes are only recorded once in DECIDE, and tryDecide has run on them; 0 <= round makes postReceive after a
   DECIDE message (round 0) a no-op *)
Definition Inv (i : inst) : Prop :=
  0 <= i_round i /\ (phase_code (i_phase i) < 5 -> i_decision i = q_empty) /\
  (i_phase i = DECIDE -> i_err i = None -> q_find_sq_value (i_decision i) = FsvNone).

Lemma Inv_R t i i' : Inv i -> R t i i' -> Inv i'.
Proof.
  intros (I1 & I2 & I3) HR. pose proof (R_kle _ _ _ HR) as Hk. destruct HR as [_ [He [Hd _]]].
  pose proof (phase_code_range (i_phase i)) as Hrg.
  repeat split.
  - apply kle_round in Hk. cbn in Hk. lia.
  - intros Hlt. rewrite Hd. apply I2. destruct (Z.lt_ge_cases (phase_code (i_phase i)) 5) as [H|H]; [exact H|].
    apply (kle_phase 5) in Hk; [cbn in Hk; lia|lia|exact H].
  - intros Hp He'. rewrite Hd.
    assert (Hen : i_err i = None). { destruct (i_err i) as [e|]; [|reflexivity]. rewrite (He e eq_refl) in He'. discriminate He'. }
    destruct (Z.lt_ge_cases (phase_code (i_phase i)) 5) as [H|H]; [rewrite (I2 H); reflexivity|].
    destruct (Z.eq_dec (phase_code (i_phase i)) 5) as [H5|H5].
    + apply I3; [apply phase_code_inj; exact H5|exact Hen].
    + apply (kle_phase 6) in Hk; [|lia|cbn; lia]. cbn in Hk. rewrite Hp in Hk. cbn in Hk. lia.
Qed.

Lemma Inv_new input now : Inv (new_instance input now).
Proof. repeat split; cbn; try lia; congruence. Qed.

Definition StepDec (i : inst) (e : event) (i' : inst) : Prop :=
  (i_decision i' = i_decision i \/
   exists now m sw, e = EvDeliver now m sw /\ m_phase m = DECIDE /\ i_decision i' = q_receive c (i_decision i) (m_sender m) (m_value m)) /\
  (i_term i' = i_term i \/
   exists v sg, i_term i' = Some (build_just 0 DECIDE v sg) /\
                q_find_sq_value (i_decision i') = FsvSome v /\ q_find_sq_for c (i_decision i') v = FsqSome sg).
Lemma StepDec_R t i e i' : R t i i' -> StepDec i e i'.
Proof.
  intros [_ (_ & Ed & _ & _ & [[E _]|(_ & v & sg & E & F1 & F2)])]; split; [left; exact Ed|left; exact E|left; exact Ed|].
  right. exists v, sg. rewrite Ed. repeat split; assumption.
Qed.
Lemma ordered_R t i e i' : Inv i -> R t i i' ->
  Rc i i' /\ Inv i' /\ (forall x, i_err i = Some x -> i_err i' = Some x) /\ Fc i i' /\ StepDec i e i'.
Proof.
  intros HI H. split; [apply H|split; [eapply Inv_R; eauto|split; [apply H|split; [eapply Fc_R; exact H|eapply StepDec_R; exact H]]]].
Qed.

(* the three situations of a delivery: ignored; no postReceive or a no-op (DECIDE message); postReceive on a running state *)
Lemma deliver_cases i m sway (Q : inst -> Prop) : Inv i -> (m_phase m = DECIDE -> m_round m = 0) ->
  (i_phase i = TERMINATED -> Q i) ->
  (i_phase i <> TERMINATED -> Q (fst (receive_one c i m sway))) ->
  (i_phase i <> TERMINATED -> m_phase m <> DECIDE -> i_err i = None -> let i1 := fst (receive_one c i m sway) in
     i_err i1 = None -> i_phase i1 <> TERMINATED -> Q (post_receive c i1 (m_round m))) ->
  Q (let '(i1, changed) := receive_one c i m sway in
     if changed && match i_err i1 with None => true | Some _ => false end then post_receive c i1 (m_round m) else i1).
Proof.
  intros HI Hw HT HB HC. destruct (phase_eqb (i_phase i) TERMINATED) eqn:Ht.
  { apply phase_eqb_true in Ht. rewrite (receive_one_terminated c i m sway Ht). exact (HT Ht). }
  apply phase_eqb_false in Ht. specialize (HB Ht). specialize (HC Ht). cbv zeta in HC.
  destruct (receive_one c i m sway) as [i1 changed] eqn:Ero. cbn [fst] in HB, HC.
  assert (E1 : i1 = fst (receive_one c i m sway)) by (rewrite Ero; reflexivity).
  destruct (changed && match i_err i1 with None => true | Some _ => false end) eqn:Hc; [|exact HB].
  apply andb_prop in Hc. destruct Hc as [_ Hc]. apply err_none_b in Hc.
  destruct (phase_eqb (m_phase m) DECIDE) eqn:Hmd.
  - apply phase_eqb_true in Hmd. specialize (Hw Hmd).
    destruct (receive_one_decide i m sway Hmd Hw Ht) as (HRc & _). rewrite <- E1 in HRc.
    assert (Hr1 : 0 <= i_round i1). { apply Rc_kle, kle_round in HRc. destruct HI as (H0 & _). cbn in *. lia. }
    rewrite Hw, (post_receive_old_round c) by exact Hr1. exact HB.
  - apply phase_eqb_false in Hmd.
    pose proof (R_receive_one true i m sway ltac:(discriminate) Hmd) as HR1. rewrite <- E1 in HR1.
    assert (He0 : i_err i = None). { destruct HR1 as [_ [Hp _]]. destruct (i_err i) as [x|]; [|reflexivity]. rewrite (Hp x eq_refl) in Hc. discriminate Hc. }
    assert (Hdc : dec_clear i). { intros Ep. destruct HI as (_ & _ & I3). apply I3; assumption. }
    pose proof (nt_receive_one i m sway Hmd Hdc Ht) as Hnt. rewrite <- E1 in Hnt. apply HC; assumption.
Qed.

Theorem step_ordered i e :
  Inv i -> wfe e -> Rc i (step c i e) /\ Inv (step c i e) /\ (forall x, i_err i = Some x -> i_err (step c i e) = Some x) /\ Fc i (step c i e) /\
  StepDec i e (step c i e).
Proof.
  intros HI Hw. destruct e as [now|now m sway|now sway].
  - apply (ordered_R true); [exact HI|]. cbn. eapply R_trans; [apply R_quiet, quiet_now|apply R_begin_quality].
  - cbn [step]. cbv zeta. set (i0 := set_now i now).
    assert (S0 : R true i i0) by apply R_quiet, quiet_now.
    apply deliver_cases; [exact HI|exact Hw| | |].
    + intros _. apply (ordered_R true); assumption.
    + intros Ht. destruct (phase_eqb (m_phase m) DECIDE) eqn:Hmd.
      * apply phase_eqb_true in Hmd. destruct (receive_one_decide i0 m sway Hmd (Hw Hmd) Ht) as (HRc & Hfe & H5 & Hcl & Hfc & Hdq & Htm).
        split; [exact HRc|]. split; [|split; [exact Hfe|split; [exact Hfc|split; [right; exists now, m, sway; auto|exact Htm]]]].
        split; [apply Rc_kle, kle_round in HRc; destruct HI as (H0 & _); cbn in *; lia|]. split; [intros Hlt; lia|exact Hcl].
      * apply phase_eqb_false in Hmd. apply (ordered_R true); [exact HI|]. eapply R_trans; [exact S0|]. apply R_receive_one; [discriminate|exact Hmd].
    + intros Ht Hmd He0 i1 He1 Hnt. apply (ordered_R true); [exact HI|]. eapply R_trans; [exact S0|].
      eapply R_trans; [apply (R_receive_one true i0 m sway); [discriminate|exact Hmd]|]. apply R_post_receive.
      pose proof (phase_code_range (i_phase i1)). destruct (i_phase i1); cbn; try lia; congruence.
  - apply (ordered_R true); [exact HI|]. cbn. eapply R_trans; [apply R_quiet, quiet_now|apply R_try_current_phase; discriminate].
Qed.

(* the outputs of a run, oldest first, exactly as the trace checker (InstanceRun.run_trace) observes them *)
Fixpoint run_hist (i : inst) (evs : list event) : list out * inst :=
  match evs with
  | [] => ([], i)
  | e :: rest => let i' := step c (clear_out i) e in
                 let '(h, f) := run_hist i' rest in (rev (i_out i') ++ h, f)
  end.

Lemma run_hist_chain evs : forall i, Inv i -> Forall wfe evs ->
  chain_ok (pkey i) (fst (run_hist i evs)) (pkey (snd (run_hist i evs))) /\ Inv (snd (run_hist i evs)).
Proof.
  induction evs as [|e evs IH]; intros i HI Hw; cbn [run_hist].
  - split; [apply kle_refl|exact HI].
  - inversion Hw as [|? ? Hwe Hwr]; subst.
    destruct (step_ordered (clear_out i) e HI Hwe) as (HRc & HI' & _ & _ & _).
    specialize (IH (step c (clear_out i) e) HI' Hwr).
    destruct (run_hist (step c (clear_out i) e) evs) as [h f]. cbn [fst snd] in *.
    destruct IH as [IH1 IH2]. split; [|exact IH2].
    destruct HRc as (added & Ea & Hc). cbn in Ea. rewrite app_nil_r in Ea. rewrite Ea.
    eapply chain_ok_app; [exact Hc|exact IH1].
Qed.

Lemma run_hist_inv (Q : inst -> Prop) (ok : event -> Prop) :
  (forall e, ok e -> wfe e) -> (forall i e, Inv i -> Q i -> ok e -> Q (step c (clear_out i) e)) ->
  forall evs i, Inv i -> Q i -> Forall ok evs -> Q (snd (run_hist i evs)) /\ Inv (snd (run_hist i evs)).
Proof.
  intros Hok Hstep. induction evs as [|e evs IH]; intros i HI HQ Hw; cbn [run_hist]; [split; assumption|].
  inversion Hw as [|? ? Hwe Hwr]; subst.
  destruct (step_ordered (clear_out i) e HI (Hok e Hwe)) as (_ & HI' & _).
  specialize (IH _ HI' (Hstep i e HI HQ Hwe) Hwr). destruct (run_hist (step c (clear_out i) e) evs). exact IH.
Qed.

Definition slots (h : list out) : list (Z * Z) :=
  flat_map (fun o => match o with OBroadcast r p _ _ _ => [(r, phase_code p)] | _ => [] end) h.
Definition skey (s : Z * Z) (k : K) : Prop := (snd s = 5 /\ fst s = 0 /\ snd k = 5) \/ (snd s <> 5 /\ k = s).
Lemma okey_skey r p k : okey r p k -> skey (r, phase_code p) k.
Proof.
  intros [(-> & -> & H)|(Hn & ->)]; [left; cbn; auto|right; split; [|reflexivity]].
  cbn. intros E. apply Hn. apply phase_code_inj. exact E.
Qed.
Lemma chain_ok_slots p0 h p1 s : chain_ok p0 h p1 -> In s (slots h) -> exists k, klt p0 k /\ skey s k.
Proof.
  revert p0; induction h as [|o h IH]; intros p0 Hc Hin; [contradiction|].
  destruct o as [r p v j t|r p|t]; cbn in Hc, Hin; try (eapply IH; eauto; fail).
  destruct Hc as (k & Hk & Ho & Hr). destruct Hin as [<-|Hin].
  - exists k; split; [exact Hk|apply okey_skey; exact Ho].
  - destruct (IH k Hr Hin) as (k' & Hk' & Hs). exists k'; split; [eapply klt_trans; eauto|exact Hs].
Qed.
Lemma skey_fresh s k k' : skey s k -> skey s k' -> klt k k' -> False.
Proof.
  intros [(A1 & A2 & A3)|(A1 & A2)] [(B1 & B2 & B3)|(B1 & B2)] Hlt; try congruence.
  - destruct Hlt as [Hlt Hfz]. specialize (Hfz ltac:(lia)). lia.
  - subst. apply (klt_irrefl _ Hlt).
Qed.
Lemma chain_ok_nodup p0 h p1 : chain_ok p0 h p1 -> NoDup (slots h).
Proof.
  revert p0; induction h as [|o h IH]; intros p0 Hc; [constructor|].
  destruct o as [r p v j t|r p|t]; cbn in Hc |- *; try (eapply IH; eauto; fail).
  destruct Hc as (k & Hk & Ho & Hr). constructor; [|eapply IH; eauto].
  intros Hin. destruct (chain_ok_slots _ _ _ _ Hr Hin) as (k' & Hk' & Hs).
  exact (skey_fresh _ _ _ (okey_skey _ _ _ Ho) Hs Hk').
Qed.

Theorem one_message_per_slot input now evs :
  Forall wfe evs -> NoDup (slots (fst (run_hist (new_instance input now) evs))).
Proof.
  intros Hw. destruct (run_hist_chain evs (new_instance input now) (Inv_new input now) Hw) as [H _].
  eapply chain_ok_nodup; exact H.
Qed.

Definition progress_le (a b : inst) : Prop :=
  i_round a < i_round b \/ (i_round a = i_round b /\ phase_code (i_phase a) <= phase_code (i_phase b)).
Theorem progress_monotone i e : Inv i -> wfe e -> progress_le i (step c i e).
Proof.
  intros HI Hw. destruct (step_ordered i e HI Hw) as (HRc & _ & _ & _ & _). apply Rc_kle in HRc.
  unfold progress_le. destruct HRc as [E|[[H|[H1 H2]] _]]; cbn in *; [|lia|lia].
  injection E as E1 E2. lia.
Qed.
Theorem reachable_Inv input now evs : Forall wfe evs -> Inv (snd (run_hist (new_instance input now) evs)).
Proof. intros Hw. apply (run_hist_chain evs _ (Inv_new input now) Hw). Qed.

Theorem candidates_monotone i e : Inv i -> wfe e -> Fc i (step c i e).
Proof. intros HI Hw. apply (step_ordered i e HI Hw). Qed.

End Cfg.
