(* Layer N, C07 "no internal error or panic", the remaining internal errors:
     beginConverge with a justification of the wrong round     (PBeginConverge)
     beginNextRound "no justification for proposal"            (PNextRound)
     a CONVERGE message without value / justification          (EConvergeMsg)
     a message or a timer in a phase that cannot handle it     (EPhase)
   are unreachable on every sequence of VALIDATED deliveries (wfmb: what gpbft/validator.go guarantees about the round
   of a justification) and alarms.  Together with InstanceConverge (ENoConvergeValue) and InstanceNoPanic (the quorum
   panics) this gives: an honest instance never reports an internal error (no_internal_error below).
   Invariant: the justifications stored for round r are from round r-1 (PREPARE, CONVERGE) resp. r (COMMIT); every
   non-bottom COMMIT value has a stored justification; the sender power of a COMMIT state is the sum over its values. *)
From Coq Require Import ZArith List Lia.
From F3 Require Import QuorumGen QuorumProofs Sets Instance InstanceRun InstanceOrder InstanceStep InstanceConverge InstanceDecide InstanceQuorum InstanceNoPanic.
Import ListNotations.
Open Scope Z_scope.

Section Cfg.
Variable c : config.
Hypothesis Htotal : 0 < c_total c < two62.
Hypothesis Hpow : forall s, 0 <= power_of c s.
Hypothesis Hsum : forall l, NoDup l -> sum_power c l <= c_total c.

Local Notation comm_update := (comm_update c).
Definition JQ (r : Z) (q : qstate) : Prop := forall e, In e (q_just q) -> j_round (snd e) = r.
Definition JCv (r : Z) (s : cstate) : Prop := forall cv, In cv (cs_values s) -> j_round (cv_just cv) = r.
Definition CJ (q : qstate) : Prop :=
  forall s, In s (q_support q) -> s_chain s <> [] -> exists e, In e (q_just q) /\ chain_eqb (fst e) (s_chain s) = true.
Definition sup_total (l : list support) : Z := fold_right (fun s a => s_power s + a) 0 l.
Definition Cov (q : qstate) : Prop := q_spower q = sup_total (q_support q).
Record RJ (r : Z) (rs : rstate) : Prop := {
  rj_prep : JQ (r - 1) (r_prep rs); rj_conv : JCv (r - 1) (r_conv rs);
  rj_comm : JQ r (r_comm rs); rj_cj : CJ (r_comm rs); rj_cov : Cov (r_comm rs) }.
Definition JI (i : inst) : Prop := forall r, RJ r (rget (i_rounds i) r).
Definition JP (e : ierr) : Prop := match e with PBeginConverge | PNextRound | EConvergeMsg | EPhase => True | _ => False end.
Definition NJ : inst -> Prop := NE JP.

Lemma RJ_empty r : RJ r r_empty.
Proof. constructor; cbn; try (intros ? []); reflexivity. Qed.
Lemma JI_rounds i i' : i_rounds i' = i_rounds i -> JI i -> JI i'.
Proof. unfold JI. intros ->. auto. Qed.
Lemma JI_rd i i' : rd i' = rd i -> JI i -> JI i'.
Proof. unfold rd. intros E. injection E as E _. apply JI_rounds. exact E. Qed.
Lemma JI_set_round_state i r s : JI i -> RJ r s -> JI (set_round_state i r s).
Proof.
  intros HJ Hs. exact (rget_rset_all RJ _ r s Hs HJ).
Qed.

Lemma GJ_begin_converge i j : JI i -> NJ i -> j_round j = i_round i - 1 ->
  JI (begin_converge c i j) /\ NJ (begin_converge c i j).
Proof.
  intros HJ HN Hr. apply begin_converge_cases; intros H; [contradiction|]. split; [|exact HN].
  match goal with |- JI (emit (set_round_state ?x ?r ?s) _) =>
    apply (JI_rounds (set_round_state x r s)); [reflexivity|apply JI_set_round_state; [exact HJ|]] end.
  pose proof (HJ (i_round i)) as [A B C D E]. constructor; cbn [r_prep r_conv r_comm]; try assumption.
  intros cv Hcv. unfold c_set_self in Hcv. fold (get_round i (i_round i)) in B.
  destruct (cv_find _ _); [apply B; exact Hcv|]. cbn in Hcv. apply in_app_or in Hcv. destruct Hcv as [Hcv|[<-|[]]]; [apply B; exact Hcv|exact Hr].
Qed.

Lemma GJ_begin_next_round i : JI i -> AllQ c i -> NJ i ->
  ((exists sg, q_find_sq_for c (r_comm (get_round i (i_round i))) [] = FsqSome sg) \/
   q_has_just (r_prep (get_round i (i_round i + 1))) COMMIT [] = true \/
   c_has_just (r_conv (get_round i (i_round i + 1))) COMMIT [] = true \/
   (exists e, In e (q_just (r_comm (get_round i (i_round i)))) /\ chain_eqb (fst e) (i_proposal i) = true)) ->
  JI (begin_next_round c i) /\ NJ (begin_next_round c i).
Proof.
  intros HJ HA HN Hwhy. apply begin_next_round_cases; intros.
  - apply GJ_begin_converge; [exact HJ|exact HN|]. cbn [i_round set_progress].
    destruct H as [(sg & _ & ->)|(_ & [H|[H|(e & Hin & _ & ->)]])].
    + cbn. lia.
    + destruct (q_get_just_inv _ _ _ _ H) as (e & Hin & <- & _). rewrite (rj_prep _ _ (HJ (i_round i + 1)) e Hin). reflexivity.
    + destruct (c_get_just_inv _ _ _ _ H) as (cv & Hin & <- & _). rewrite (rj_conv _ _ (HJ (i_round i + 1)) cv Hin). reflexivity.
    + rewrite (rj_comm _ _ (HJ (i_round i)) e Hin). lia.
  - exfalso. eapply (find_sq_for_no_panic c Htotal); [apply HA|eassumption].
  - exfalso. destruct Hwhy as [(sg & Hs)|[Hs|[Hs|(e & Hin & Hce)]]].
    + congruence.
    + unfold q_has_just in Hs. rewrite H0 in Hs. discriminate Hs.
    + unfold c_has_just in Hs. rewrite H1 in Hs. discriminate Hs.
    + rewrite (H2 e Hin) in Hce. discriminate Hce.
Qed.

Lemma GJ_skip_to_round i round v j : JI i -> NJ i -> j_round j = round - 1 ->
  JI (skip_to_round c i round v j) /\ NJ (skip_to_round c i round v j).
Proof.
  intros HJ HN Hr. destruct (skip_to_round_spec c i round v j) as (l & p & w & -> & _).
  apply GJ_begin_converge; [exact HJ|exact HN|exact Hr].
Qed.

Lemma sup_total_app a b : sup_total (a ++ b) = sup_total a + sup_total b.
Proof. exact (sumf_app s_power a b). Qed.

Lemma q_receive_just_keep q sender v : q_just (q_receive c q sender v) = q_just q.
Proof. unfold q_receive. destruct (memZ _ _); reflexivity. Qed.
Lemma q_receive_support q sender v s : In s (q_support (q_receive c q sender v)) -> s_chain s = v \/ In s (q_support q).
Proof.
  unfold q_receive. destruct (memZ _ _); [right; assumption|]. unfold q_receive_inner. cbn [q_support].
  intros H. apply sup_set_In in H. destruct H as [->|H]; [left; reflexivity|right; exact H].
Qed.
Lemma Cov_receive q sender v : Cov q -> Cov (q_receive c q sender v).
Proof.
  unfold Cov, q_receive. intros HC. destruct (memZ _ _); [exact HC|]. unfold q_receive_inner. cbn [q_support q_spower q_senders q_just].
  set (cand := match sup_find (q_support q) v with Some s => s | None => mkSup v 0 [] false end).
  set (ns := mkSup v (s_power cand + power_of c sender) (s_signers cand ++ [sender]) (isStrongQuorum (s_power cand + power_of c sender) (c_total c))).
  destruct (sup_set_split (q_support q) ns) as [(l1 & old & l2 & El & Hc & Hs & Hf)|[Hn Hs]]; rewrite Hs.
  - assert (Eo : cand = old). { unfold cand. cbn in Hf. rewrite Hf. reflexivity. }
    rewrite HC, El, !sup_total_app. cbn. rewrite Eo. lia.
  - assert (Ec : s_power cand = 0). { unfold cand. cbn in Hn. rewrite Hn. reflexivity. }
    rewrite HC, sup_total_app. cbn. rewrite Ec. lia.
Qed.
Lemma Cov_receive_just q v j : Cov q -> Cov (q_receive_just q v j).
Proof. unfold Cov, q_receive_just. destruct (existsb _ _); auto. Qed.
Lemma JQ_receive r q sender v : JQ r q -> JQ r (q_receive c q sender v).
Proof. unfold JQ. rewrite q_receive_just_keep. auto. Qed.
Lemma JQ_receive_just r q v j : JQ r q -> j_round j = r -> JQ r (q_receive_just q v j).
Proof.
  unfold JQ, q_receive_just. intros H Hj. destruct (existsb _ _); [exact H|]. cbn. intros e He.
  apply in_app_or in He. destruct He as [He|[<-|[]]]; [apply H; exact He|exact Hj].
Qed.

Lemma CJ_comm_update q sender v oj : CJ q -> (v <> [] -> exists j, oj = Some j) -> CJ (comm_update q sender v oj).
Proof.
  intros HC Hv. unfold comm_update. cbv zeta.
  destruct v as [|x v'].
  - assert (E : (match oj with Some _ => q_receive c q sender [] | None => q_receive c q sender [] end) = q_receive c q sender []) by (destruct oj; reflexivity).
    intros s Hs Hne. destruct (q_receive_support _ _ _ _ Hs) as [E1|Hin]; [congruence|].
    destruct (HC s Hin Hne) as (e & He & Hce). exists e. split; [rewrite q_receive_just_keep; exact He|exact Hce].
  - destruct (Hv ltac:(discriminate)) as (j & ->).
    intros s Hs Hne. unfold q_receive_just in *.
    destruct (existsb (fun e => chain_eqb (fst e) (x :: v')) (q_just (q_receive c q sender (x :: v')))) eqn:Ex.
    + destruct (q_receive_support _ _ _ _ Hs) as [E1|Hin].
      * apply existsb_exists in Ex. destruct Ex as (e & He & Hce). exists e. split; [exact He|rewrite E1; exact Hce].
      * destruct (HC s Hin Hne) as (e & He & Hce). exists e. split; [rewrite q_receive_just_keep; exact He|exact Hce].
    + cbn [q_support q_just] in *. destruct (q_receive_support _ _ _ _ Hs) as [E1|Hin].
      * exists (x :: v', j). split; [apply in_or_app; right; left; reflexivity|cbn [fst]; rewrite E1; apply chain_eqb_refl].
      * destruct (HC s Hin Hne) as (e & He & Hce). exists e. split; [apply in_or_app; left; rewrite q_receive_just_keep; exact He|exact Hce].
Qed.

Lemma all_zero_quorum q : QS c q -> Cov q -> q_from_strong c q = true ->
  filter (fun v => negb (is_zero v)) (q_all_values q) = [] -> q_find_sq_value q <> FsvNone.
Proof.
  intros HQ HC Hs Hz. unfold q_find_sq_value, q_from_strong, q_all_values, Cov in *.
  assert (Hall : forall s, In s (q_support q) -> s_chain s = []).
  { intros s Hin. destruct (s_chain s) as [|x r] eqn:E; [reflexivity|exfalso].
    assert (Hf : In (s_chain s) (filter (fun v => negb (is_zero v)) (map s_chain (q_support q)))).
    { apply filter_In. split; [apply in_map; exact Hin|rewrite E; reflexivity]. }
    rewrite Hz in Hf. exact Hf. }
  destruct (q_support q) as [|s [|t l]] eqn:El.
  - exfalso. cbn in HC. rewrite HC in Hs. apply (strong_iff 0 (c_total c)) in Hs; lia.
  - assert (Hsq : s_sq s = true).
    { destruct (qs_sup c q HQ s) as [_ _ _ D]; [rewrite El; left; reflexivity|]. rewrite D. cbn in HC. replace (s_power s) with (q_spower q) by lia. exact Hs. }
    cbn. rewrite Hsq. discriminate.
  - exfalso. pose proof (qs_chains c q HQ) as Hd. rewrite El in Hd. cbn in Hd. destruct Hd as [Hd _].
    apply (Hd t); [left; reflexivity|]. rewrite (Hall s), (Hall t); [reflexivity|right; left; reflexivity|left; reflexivity].
Qed.

Lemma GJ_try_commit i round sway : JI i -> AllQ c i -> i_err i = None ->
  JI (try_commit c i round sway) /\ NJ (try_commit c i round sway).
Proof.
  intros HJ HA He. pose proof (NE_none JP i He) as HN.
  assert (HQ : QS c (r_comm (get_round i round))) by apply HA.
  apply try_commit_cases; intros.
  - split; [exact HJ|apply NE_fail; [intros []|exact HN]].
  - split; [apply (JI_rd i); [|exact HJ]; rewrite rd_begin_decide; reflexivity|].
    apply NE_none. apply (begin_decide_no_panic c Htotal); assumption.
  - split; assumption.
  - subst round. apply GJ_begin_next_round; [exact HJ|exact HA|exact HN|].
    destruct H1 as [H1|(_ & [H1|H1])]; [left|right; left; exact H1|right; right; left; exact H1].
    destruct (find_sq_value_support c _ _ HQ H1) as (s & Ef & Es). eapply (find_sq_for_some c Htotal); eassumption.
  - (* the adopted value is a non-bottom COMMIT value of this round, so its justification is stored *)
    subst round. apply GJ_begin_next_round; [exact HJ|exact HA|exact HN|]. right; right; right.
    apply filter_In in H3. destruct H3 as [Hv Hnz]. unfold q_all_values in Hv. apply in_map_iff in Hv. destruct Hv as (s & Hsc & Hsin).
    assert (Hne : s_chain s <> []) by (rewrite Hsc; destruct v; [discriminate Hnz|discriminate]).
    destruct (rj_cj _ _ (HJ (i_round i)) s Hsin Hne) as (e & Hein & Hee). exists e. rewrite Hsc in Hee. split; [exact Hein|exact Hee].
  - exfalso. subst round. apply (all_zero_quorum _ HQ); [exact (rj_cov _ _ (HJ (i_round i)))|assumption|assumption|assumption].
  - destruct (rd_try_rebroadcast c i) as [A B]. split; [apply (JI_rd i); assumption|apply (NE_err JP i); assumption].
Qed.

Lemma GJ_try_current_phase i sway : JI i -> AllQ c i -> i_err i = None -> i_phase i <> INITIAL ->
  JI (try_current_phase c i sway) /\ NJ (try_current_phase c i sway).
Proof.
  intros HJ HA He Hph. apply try_current_phase_cases; intros Ep.
  - congruence.
  - destruct (rd_try_quality c i) as [A B]. split; [apply (JI_rd i); assumption|apply NE_none; congruence].
  - split; [apply (JI_rd i); [apply rd_try_converge|exact HJ]|apply NE_try_converge; [intros []|exact He]].
  - split; [apply (JI_rd i); [apply rd_try_prepare|exact HJ]|apply NE_none, (try_prepare_err_none c Htotal); [apply HA|exact He]].
  - apply GJ_try_commit; assumption.
  - split; [apply (JI_rd i); [apply rd_try_decide|exact HJ]|].
    apply NE_none. apply (try_decide_no_panic c Htotal Hsum); [apply HA|exact He].
  - split; [exact HJ|apply NE_none; exact He].
Qed.

Lemma JQ_comm_update r q sender v oj : JQ r q -> (forall j, oj = Some j -> v <> [] -> j_round j = r) -> JQ r (comm_update q sender v oj).
Proof.
  intros H Hj. unfold comm_update. cbv zeta. destruct v as [|x v']; [destruct oj; apply JQ_receive; exact H|].
  destruct oj as [j|]; [|apply JQ_receive; exact H]. apply JQ_receive_just; [apply JQ_receive; exact H|apply Hj; [reflexivity|discriminate]].
Qed.
Lemma Cov_comm_update q sender v oj : Cov q -> Cov (comm_update q sender v oj).
Proof.
  intros H. unfold comm_update. cbv zeta. destruct v as [|x v']; [destruct oj; apply Cov_receive; exact H|].
  destruct oj as [j|]; [apply Cov_receive_just|]; apply Cov_receive; exact H.
Qed.

Lemma JCv_receive r s sender v rank j cs : JCv r s -> j_round j = r -> c_receive s sender v rank (Some j) = Some cs -> JCv r cs.
Proof.
  intros Jc Hj. unfold c_receive. destruct v as [|x v']; [discriminate|]. destruct (memZ _ _); [intros E; injection E as <-; exact Jc|].
  destruct (cv_find (cs_values s) (x :: v')) as [old|] eqn:Ef.
  - destruct (rank_lt _ _); intros E; injection E as <-; [|exact Jc]. intros cv Hcv. cbn in Hcv.
    destruct (cv_set_In _ _ _ Hcv) as [->|Hin]; [cbn; apply Jc; apply (cv_find_In _ _ _ Ef)|apply Jc; exact Hin].
  - intros E; injection E as <-. intros cv Hcv. cbn in Hcv. apply in_app_or in Hcv. destruct Hcv as [Hcv|[<-|[]]]; [apply Jc; exact Hcv|exact Hj].
Qed.

Lemma JI_absorb i m : JI i -> AllQ c i -> wfmb m = true -> absorbs c JI JP i m.
Proof.
  intros HJ HA Hw. unfold absorbs. cbv zeta.
  pose proof (HJ (m_round m)) as [Jp Jc Jm Jcj Jcov]. fold (get_round i (m_round m)) in Jp, Jc, Jm, Jcj, Jcov.
  unfold wfmb in Hw. destruct (m_phase m); try discriminate Hw.
  - apply (JI_set_round_state (set_quality i _)); [exact HJ|constructor; assumption].
  - apply andb_prop in Hw. destruct Hw as [Hv Hj]. destruct (m_just m) as [j|]; [|discriminate Hj]. apply Z.eqb_eq in Hj.
    destruct (c_receive _ _ _ _ _) as [cs|] eqn:Ec.
    + apply JI_set_round_state; [exact HJ|]. constructor; try assumption. exact (JCv_receive _ _ _ _ _ _ _ Jc Hj Ec).
    + exfalso. unfold c_receive in Ec. destruct (m_value m); [discriminate Hv|].
      destruct (memZ _ _); [discriminate|]. destruct (cv_find _ _) as [old|]; [destruct (rank_lt _ _)|]; discriminate.
  - apply JI_set_round_state; [exact HJ|]. constructor; cbn [r_prep r_conv r_comm]; try assumption. unfold prep_update. cbv zeta.
    destruct (m_just m) as [j|]; [apply JQ_receive_just; [apply JQ_receive; exact Jp|apply Z.eqb_eq; exact Hw]|apply JQ_receive; exact Jp].
  - apply JI_set_round_state; [exact HJ|]. constructor; cbn [r_prep r_conv r_comm]; try assumption.
    + apply JQ_comm_update; [exact Jm|]. intros j Ej Hne. rewrite Ej in Hw. destruct (m_value m); [congruence|]. cbn in Hw. apply Z.eqb_eq. exact Hw.
    + apply CJ_comm_update; [exact Jcj|]. intros Hne. destruct (m_value m); [congruence|]. cbn in Hw. destruct (m_just m) as [j|]; [exists j; reflexivity|discriminate Hw].
    + apply Cov_comm_update. exact Jcov.
  - apply (JI_set_round_state (set_decision i _)); [exact HJ|constructor; assumption].
Qed.

Definition Full3 (i : inst) : Prop := PI i /\ AllQ c i /\ JI i.
Definition AnyErr (e : ierr) : Prop := True.
Lemma GJ_Post x : JI x /\ NJ x -> Post JI JP x.
Proof. intros [A N]. split; [intros _; exact A|exact N]. Qed.
Lemma JI_core i i' : core i' = core i -> JI i -> JI i'.
Proof. intros E. apply JI_rounds. apply (core_fields _ _ E). Qed.

Lemma JI_StepInv : StepInvOn c (fun i => PI i /\ AllQ c i) JI JP (fun m => wfmb m = true) (fun e => ev_okb e = true).
Proof.
  refine {| oke_msg := _;
            P_restart := fun i now H => _;
            P_quiet := fun i i' Q => JI_core i i' (quiet_core i i' Q);
            P_cands := fun i l _ _ _ HJ => HJ;
            P_tcp := fun i sw A HJ He => GJ_Post _ (GJ_try_current_phase i sw HJ (proj2 A) He (proj2 (proj2 (proj2 (proj1 A)))));
            P_commit := fun i m sw _ A HJ He _ => GJ_Post _ (GJ_try_commit i (m_round m) sw HJ (proj2 A) He);
            P_skipd := fun i m _ _ _ HJ _ => HJ;
            P_skip := fun i round w _ HJ He _ _ _ Hb => GJ_Post _ (GJ_skip_to_round i round (cv_chain w) (cv_just w) HJ (NE_none JP i He) _);
            P_absorb := fun i m A HJ _ Hw => JI_absorb i m HJ (proj2 A) Hw |}.
  - intros now m sw H. exact H.
  - discriminate H.
  - destruct (c_find_best_In _ _ _ Hb) as [Hin _]. exact (rj_conv _ _ (HJ round) w Hin).
Qed.

Lemma Full3_clears : clears Full3.
Proof. intros x (A & B & C). split; [apply PI_clears; exact A|split; [exact B|exact C]]. Qed.
Lemma Full3_StepInv : StepInv c Full3 AnyErr (fun m => wfmb m = true) (fun e => ev_okb e = true).
Proof.
  pose (okm := fun m => wfmb m = true). pose (oke := fun e => ev_okb e = true).
  assert (H1 : StepInvOn c (fun _ => True) PI NoCV okm oke).
  { apply (StepInv_weaken c _ _ _ _ _ _ okm _ oke (fun _ H => H) (fun _ H => H) (fun _ _ => I) (fun _ _ => I) (fun _ _ _ H => H) (PI_StepInv c)). }
  assert (H2 : StepInvOn c (fun i => True /\ PI i) (AllQ c) QP okm oke).
  { apply (StepInv_weaken c _ _ _ _ _ _ okm _ oke (fun _ _ => I) (fun _ H => H) (fun _ _ => I) (fun _ _ => I) (fun _ _ _ H => H) (AllQ_StepInv c Htotal Hsum)). }
  pose proof (StepInv_and c _ _ _ _ _ _ _ _ (fun i H H' => conj (proj2 H) H') H2 JI_StepInv) as H23.
  pose proof (StepInv_and c _ _ _ _ _ _ _ _ (fun i H H' => conj H H') H1 H23) as H123.
  refine (StepInv_weaken c _ _ _ _ _ _ okm _ oke (fun _ H => H) _ (fun _ H => H) (fun _ H => H) (fun _ _ _ H => H) H123).
  (* the three error classes are all there is *)
  intros e _. unfold NoCV. destruct e; cbn; auto.
Qed.

Lemma ev_okb_wfe e : ev_okb e = true -> wfe e.
Proof.
  destruct e as [now|now m sway|now sway]; cbn; auto. unfold wfmb. intros H Hd. rewrite Hd in H. apply Z.eqb_eq. exact H.
Qed.

Lemma full_receive_one i m sway : PI i -> AllQ c i -> JI i -> i_err i = None -> wfmb m = true ->
  let i' := fst (receive_one c i m sway) in PI i' /\ AllQ c i' /\ JI i' /\ i_err i' = None.
Proof.
  intros HP HA HJ He Hw. cbv zeta.
  destruct (Post_all _ _ (Post_receive_one c _ _ _ _ Full3_StepInv i m sway (conj HP (conj HA HJ)) He Hw)) as [E (A & B & C)]. auto.
Qed.
Lemma full_post_receive i round : PI i -> AllQ c i -> JI i -> i_err i = None -> i_phase i <> TERMINATED ->
  let i' := post_receive c i round in PI i' /\ AllQ c i' /\ JI i' /\ i_err i' = None.
Proof.
  intros HP HA HJ He Ht. cbv zeta.
  destruct (Post_all _ _ (Post_post_receive c _ _ _ _ Full3_StepInv i round (conj HP (conj HA HJ)) He Ht)) as [E (A & B & C)]. auto.
Qed.
Lemma full_step i e : Inv i -> PI i -> AllQ c i -> JI i -> i_err i = None -> ev_okb e = true ->
  let i' := step c (clear_out i) e in Inv i' /\ PI i' /\ AllQ c i' /\ JI i' /\ i_err i' = None.
Proof.
  intros HI HP HA HJ He Hok. cbv zeta.
  destruct (step_ordered c (clear_out i) e HI (ev_okb_wfe e Hok)) as (_ & HI' & _).
  assert (F0 : Full3 (clear_out i)) by (split; [exact HP|split; [exact HA|exact HJ]]).
  destruct (Post_all _ _ (Post_step c _ _ _ _ Full3_StepInv (clear_out i) e HI (ev_okb_wfe e Hok) Hok F0 He)) as [E (A & B & C)]. auto.
Qed.
Lemma full_start input t now :
  let i := step c (new_instance input t) (EvStart now) in Inv i /\ PI i /\ AllQ c i /\ JI i /\ i_err i = None.
Proof.
  cbv zeta. split; [apply Inv_started0|split; [apply PI_started0|split; [|split; [|reflexivity]]]].
  - exact (AllQ_new c input t).
  - intros r. cbn. destruct r; apply RJ_empty.
Qed.

Theorem no_internal_error input now evs :
  Forall (fun e => ev_okb e = true) evs -> i_err (snd (run_hist c (started c input now) evs)) = None.
Proof using Htotal Hpow Hsum.
  intros Hw. destruct (full_start input now now) as (HI & HP & HA & HJ & He).
  apply (Post_all Full3). apply (Post_run c _ _ _ _ Full3_StepInv); [exact Full3_clears|exact HI|apply Post_none; [split; [exact HP|split; assumption]|exact He]|].
  apply Forall_forall. intros e H. pose proof (proj1 (Forall_forall _ _) Hw e H) as Hok. split; [apply ev_okb_wfe|]; exact Hok.
Qed.

End Cfg.

