(* beginInstance with queued messages (InstanceRun.start_with_queue = Start, then receive_many of the drained queue): the
   instance-level invariants -- and with them "no internal error" -- hold afterwards as well, for every power-table
   committee, every input and every queue of validated messages ordered by round (as messageQueue.Drain returns them). *)
From Coq Require Import ZArith List Bool Lia.
From F3 Require Import Instance InstanceRun InstanceOrder InstanceConverge InstanceQuorum
  InstanceNoPanic InstanceJust Refine RefineNode RefineNet.
Import ListNotations.
Open Scope Z_scope.

Section Many.
Variable c : config.
Hypothesis Hwf : committee_wf c.
Local Notation Full := (Full c).

Lemma Inv_receive_one i m sway : Inv i -> wfmb m = true -> Inv (fst (receive_one c i m sway)).
Proof.
  intros HI Hw. destruct (phase_eqb (i_phase i) TERMINATED) eqn:Ht.
  { apply phase_eqb_true in Ht. rewrite (receive_one_terminated c i m sway Ht). exact HI. }
  apply phase_eqb_false in Ht.
  destruct (phase_eqb (m_phase m) DECIDE) eqn:Hmd.
  - apply phase_eqb_true in Hmd. pose proof (ev_okb_wfe (EvDeliver 0 m sway) Hw Hmd) as Hr.
    destruct (receive_one_decide c i m sway Hmd Hr Ht) as (HRc & Hfe & H5 & Hcl & _).
    split; [|split].
    + apply Rc_kle, kle_round in HRc. destruct HI as (H0 & _). cbn in *. lia.
    + intros Hlt. lia.
    + exact Hcl.
  - apply phase_eqb_false in Hmd. exact (Inv_R c true i _ HI (R_receive_one c true i m sway ltac:(discriminate) Hmd)).
Qed.

Lemma Full_receive_one i m sway : Full i -> wfmb m = true -> Full (fst (receive_one c i m sway)).
Proof.
  intros (HI & HP & HA & HJ & He) Hw. destruct (committee_wf_ok c Hwf) as (Ht & Hpow & Hsum).
  split; [exact (Inv_receive_one i m sway HI Hw)|exact (full_receive_one c Ht Hsum i m sway HP HA HJ He Hw)].
Qed.

Lemma Full_post_receive i round : Full i -> i_phase i <> TERMINATED -> Full (post_receive c i round).
Proof.
  intros (HI & HP & HA & HJ & He) Hnt. destruct (committee_wf_ok c Hwf) as (Ht & Hpow & Hsum).
  split; [|exact (full_post_receive c Ht Hsum i round HP HA HJ He Hnt)].
  apply (Inv_R c true i); [exact HI|]. apply R_post_receive. destruct (i_phase i); cbn; try lia; congruence.
Qed.

Lemma Full_post_receive_first rounds : forall i, Full i -> i_phase i <> TERMINATED -> Full (post_receive_first c i rounds).
Proof.
  induction rounds as [|r rest IH]; intros i HF Hnt; cbn [post_receive_first]; [exact HF|].
  destruct ((i_round (post_receive c i r) =? i_round i) && _); [apply IH; assumption|apply Full_post_receive; assumption].
Qed.

Lemma post_receive_first_noop rounds : forall i, i_err i = None -> (forall r, In r rounds -> r <= i_round i) -> post_receive_first c i rounds = i.
Proof.
  induction rounds as [|r rest IH]; intros i He Hr; cbn [post_receive_first]; [reflexivity|].
  assert (E : post_receive c i r = i).
  { apply post_receive_old_round. apply Hr. left. reflexivity. }
  rewrite E, Z.eqb_refl, He. cbn [andb]. apply IH; [exact He|intros x Hx; apply Hr; right; exact Hx].
Qed.

Fixpoint rounds_sorted (lo : Z) (ms : list (msg * option chain)) : Prop :=
  match ms with [] => True | (m, _) :: rest => lo <= m_round m /\ rounds_sorted (m_round m) rest end.
Definition queue_ok (ms : list (msg * option chain)) : Prop := Forall (fun p => wfmb (fst p) = true) ms /\ rounds_sorted 0 ms.

(* invariant of the loop: the instance invariants; every recorded round is at most the last round seen; a terminated
   instance has only recorded rounds <= 0 (an instance terminates only on a DECIDE message, and those are for round 0) *)
Definition LoopInv (i : inst) (rounds : list Z) (lo : Z) : Prop :=
  Full i /\ (forall r, In r rounds -> r <= lo) /\ (i_phase i = TERMINATED -> forall r, In r rounds -> r <= 0).

Lemma dec_clear_Full i : Full i -> dec_clear i.
Proof. intros (HI & _ & _ & _ & He) Hp. destruct HI as (_ & _ & H3). exact (H3 Hp He). Qed.

Lemma receive_all_inv ms : forall i rounds lo, 0 <= lo -> LoopInv i rounds lo ->
  Forall (fun p => wfmb (fst p) = true) ms -> rounds_sorted lo ms ->
  exists lo', LoopInv (fst (receive_all c i ms rounds)) (snd (receive_all c i ms rounds)) lo'.
Proof.
  induction ms as [|[m sway] rest IH]; intros i rounds lo Hlo HL Hw Hs; cbn [receive_all]; [exists lo; exact HL|].
  inversion Hw as [|? ? Hwm Hwr]; subst. cbn [fst] in Hwm. destruct Hs as (Hle & Hs).
  destruct HL as (HF & Hr & Ht).
  pose proof (Full_receive_one i m sway HF Hwm) as HF1.
  destruct (receive_one c i m sway) as [i1 changed] eqn:Ero. cbn [fst] in HF1.
  assert (E1 : i_err i1 = None) by apply HF1. rewrite E1.
  apply (IH i1 _ (m_round m)); [lia| |exact Hwr|exact Hs].
  split; [exact HF1|]. split.
  - intros r Hin. destruct (changed && negb (existsb (Z.eqb (m_round m)) rounds)); [destruct Hin as [<-|Hin]; [lia|specialize (Hr r Hin); lia]|specialize (Hr r Hin); lia].
  - intros Hterm r Hin.
    destruct (phase_eqb (i_phase i) TERMINATED) eqn:Eti.
    + apply phase_eqb_true in Eti. rewrite (receive_one_terminated c i m sway Eti) in Ero.
      inversion Ero; subst i1 changed. cbn [andb] in Hin. exact (Ht Eti r Hin).
    + apply phase_eqb_false in Eti.
      destruct (phase_eqb (m_phase m) DECIDE) eqn:Hmd.
      * apply phase_eqb_true in Hmd. pose proof (ev_okb_wfe (EvDeliver 0 m sway) Hwm Hmd) as Hr0.
        destruct (changed && negb (existsb (Z.eqb (m_round m)) rounds)); [destruct Hin as [<-|Hin]; [lia|specialize (Hr r Hin); lia]|specialize (Hr r Hin); lia].
      * apply phase_eqb_false in Hmd. exfalso.
        pose proof (nt_receive_one c i m sway Hmd (dec_clear_Full i HF) Eti) as Hnt. rewrite Ero in Hnt. cbn [fst] in Hnt. exact (Hnt Hterm).
Qed.

Lemma insert_desc_In x l y : In y (insert_desc x l) -> y = x \/ In y l.
Proof.
  induction l as [|z r IH]; cbn; [intros [<-|[]]; left; reflexivity|].
  destruct (z <? x); cbn; [intros [<-|H]; [left; reflexivity|right; exact H]|].
  intros [<-|H]; [right; left; reflexivity|destruct (IH H) as [->|H']; [left; reflexivity|right; right; exact H']].
Qed.
Lemma sort_desc_In l y : In y (fold_right insert_desc [] l) -> In y l.
Proof. induction l as [|x r IH]; cbn; [intros []|]. intros H. destruct (insert_desc_In _ _ _ H) as [->|H']; [left; reflexivity|right; exact (IH H')]. Qed.

Theorem Full_receive_many i ms : Full i -> queue_ok ms -> Full (receive_many c i ms).
Proof.
  intros HF (Hw & Hs). unfold receive_many. destruct (phase_eqb (i_phase i) TERMINATED); [exact HF|].
  destruct (receive_all_inv ms i [] 0 (Z.le_refl 0) (conj HF (conj (fun r (H : In r []) => match H with end) (fun _ r (H : In r []) => match H with end))) Hw Hs)
    as (lo' & HF1 & Hr & Ht).
  destruct (receive_all c i ms []) as [i1 rounds]. cbn [fst snd] in *.
  assert (E1 : i_err i1 = None) by apply HF1. rewrite E1.
  destruct (phase_eqb (i_phase i1) TERMINATED) eqn:Et.
  - apply phase_eqb_true in Et. rewrite post_receive_first_noop; [exact HF1|exact E1|].
    intros r Hin. apply sort_desc_In in Hin. specialize (Ht Et r Hin). destruct HF1 as ((H0 & _) & _). lia.
  - apply phase_eqb_false in Et. apply Full_post_receive_first; assumption.
Qed.

Lemma rounds_sortedb_sound ms : forall lo, rounds_sortedb lo ms = true -> rounds_sorted lo ms.
Proof.
  induction ms as [|[m s] rest IH]; intros lo H; cbn in *; [exact I|].
  apply andb_true_iff in H. destruct H as [H1 H2]. split; [apply Z.leb_le; exact H1|apply IH; exact H2].
Qed.
(* what the trace checker evaluates on every queue the real participant drained *)
Lemma queue_okb_sound ms : forallb (fun p => wfmb (fst p)) ms = true -> rounds_sortedb 0 ms = true -> queue_ok ms.
Proof. intros H1 H2. split; [apply Forall_forall; intros p Hp; exact (proj1 (forallb_forall _ _) H1 p Hp)|apply rounds_sortedb_sound; exact H2]. Qed.

Theorem start_with_queue_no_internal_error input now ms : queue_ok ms ->
  let i := start_with_queue c (new_instance input 0) now ms in
  i_err i = None /\ Inv i /\ PI i /\ AllQ c i /\ JI i.
Proof.
  intros Hq i. assert (HF : Full i).
  { unfold i, start_with_queue. apply Full_receive_many; [|exact Hq]. exact (Full_start c input now). }
  destruct HF as (A & B & C & D & E). split; [exact E|split; [exact A|split; [exact B|split; [exact C|exact D]]]].
Qed.
End Many.
