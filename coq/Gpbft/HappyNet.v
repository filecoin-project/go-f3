(* The happy path over the NETWORK model (C02 second sentence; the synchronous corner of C06).
   Setting: the network of Layer-N instances of RefineNet.v; every honest member proposes the same chain v; no faulty
   member ever casts a vote; no timer fires, and every delivery happens before the receiver's current phase timer expires
   (messages arrive within the synchrony bound).  Then, for EVERY such schedule -- any committee, any order of starts
   and deliveries, duplicates and omissions included:
     * every vote ever cast is a round-0 vote for v: nobody votes bottom, nobody votes for a prefix or another chain,
       nobody leaves round 0 (no CONVERGE is ever cast);
     * whoever decides, decides v.
   (Progress -- that everybody does decide once the votes are delivered -- is HappyLive.v.) *)
From Coq Require Import ZArith List Bool Lia.
From F3 Require Import Instance InstanceOrder InstanceNoPanic Refine RefineNode RefineNet HappyInst HappyStep.
Import ListNotations.
Open Scope Z_scope.

Section Net.
Variable c : config.
Variable honest : nat -> bool.
Variable input : nat -> chain.
Variable v : chain.
Hypothesis Hwf : committee_wf c.
Hypothesis Hscaled : c_total c <= 65535.
Hypothesis Hrr : 0 <= c_rebro_round c.
Hypothesis Hv : (2 <= length v)%nat.
Hypothesis Hunanimous : forall k, honest k = true -> input k = v.

Lemma Hinput : forall k, honest k = true -> input k <> [].
Proof. intros k Hk. rewrite (Hunanimous k Hk). exact (v_nonnil v Hv). Qed.

Local Notation NI := (NI c honest input).
Local Notation member := (member c honest).
Local Notation shape := (shape c v).

Definition vvote (x : Spec.vote) : Prop :=
  Spec.round x = 0%nat /\ Spec.vl x = Some v /\ Spec.ph x <> Spec.CONVERGE.
Definition HN (n : net) : Prop :=
  (forall x, In x (n_votes n) -> vvote x) /\
  (forall k, member k -> i_phase (n_inst n k) <> INITIAL -> shape (n_inst n k)).

(* synchrony, per action: only starts and deliveries; a delivery reaches its receiver before the receiver's phase timer
   expires, or when the receiver is already in DECIDE or done (okt) *)
Definition happy_act (n : net) (a : action) : Prop :=
  match a with
  | AStart _ _ => True
  | ADeliver k now _ _ => okt (set_now (clear_out (n_inst n k)) now)
  | AAlarm _ _ _ => False
  | AByz _ => False
  end.
Fixpoint all_happy (n : net) (acts : list action) : Prop :=
  match acts with [] => True | a :: rest => happy_act n a /\ all_happy (nstep c n a) rest end.

Lemma ovotes_vvote k outs : 0 <= k -> Forall (out_v v) outs -> forall x, In x (ovotes k outs) -> vvote x.
Proof.
  intros Hk Ho x Hx. unfold ovotes in Hx. apply in_flat_map in Hx. destruct Hx as (o & Hin & Hxo).
  rewrite Forall_forall in Ho. specialize (Ho o Hin). destruct o as [r p y j t|r p|t]; cbn in Hxo; try contradiction.
  destruct Hxo as [<-|[]]. destruct Ho as (-> & -> & Hp). unfold vvote, voteS. cbn [Spec.round Spec.vl Spec.ph].
  split; [reflexivity|]. split; [destruct (v_cons v Hv) as (a & w & ->); reflexivity|].
  destruct Hp as [-> | [-> | [-> | ->]]]; cbn; discriminate.
Qed.

Lemma adm_vmsg E m : (forall x, In x E -> vvote x) -> adm c honest E m -> vmsg v m.
Proof.
  intros HE (Hs & Hr & Hin & Hm). destruct (HE _ Hin) as (R & V & P). unfold voteS in R, V, P. cbn [Spec.round Spec.vl Spec.ph] in R, V, P.
  split; [lia|]. split.
  - unfold valS in V. destruct (m_value m); [discriminate V|]. injection V as <-. reflexivity.
  - destruct (m_phase m); try contradiction; cbn in P; try congruence; auto.
Qed.

Lemma net_deliver n k now m sway : NI n -> HN n -> aok c honest n (ADeliver k now m sway) ->
  let i := clear_out (n_inst n k) in
  shape i /\ vmsg v m /\ i_err i = None /\ i_err (step c i (EvDeliver now m sway)) = None /\
  In (voteS (m_sender m) 0 (m_phase m) v) (n_votes n) /\ Inv (step c i (EvDeliver now m sway)).
Proof.
  intros (_ & HNI) (HV & HS) (Hm & Hph & Hadm). destruct (HNI k Hm) as (_ & _ & Hf). destruct (Hf Hph) as (Hfull & _).
  destruct (Full_step c Hwf (n_inst n k) (EvDeliver now m sway) Hfull (adm_ev_okb c honest (n_votes n) (EvDeliver now m sway) Hadm)) as (HI' & _ & _ & _ & He).
  pose proof (adm_vmsg _ m HV Hadm) as Hvm. split; [exact (shape_clear_out c v _ (HS k Hm Hph))|]. split; [exact Hvm|].
  split; [exact (proj2 (proj2 (proj2 (proj2 Hfull))))|]. split; [exact He|].
  split; [|exact HI']. destruct Hadm as (_ & _ & Hin & _). destruct Hvm as (Hr0 & Hv0 & _). rewrite Hr0, Hv0 in Hin. exact Hin.
Qed.

Lemma HN_node_step n k e : 0 <= k -> HN n -> shape (step c (clear_out (n_inst n k)) e) -> HN (node_step c n k e).
Proof.
  intros Hk (HV & HS) S. split.
  - intros x Hx. apply in_app_or in Hx. destruct Hx as [Hx|Hx]; [|exact (HV x Hx)].
    exact (ovotes_vvote k _ Hk (sh_out c v _ S) x Hx).
  - intros k' Hm' Hp'. rewrite n_inst_node_step in *. destruct (Z.eqb_spec k' k) as [->|Hne]; [exact S|exact (HS k' Hm' Hp')].
Qed.

Theorem happy_step n a : NI n -> HN n -> aok c honest n a -> happy_act n a -> HN (nstep c n a).
Proof.
  intros HNI HHN Hok Hh. destruct a as [k now|k now m sway|k now sway|x]; cbn [happy_act] in Hh; try contradiction; cbn [nstep].
  - destruct Hok as (Hm & Hph). apply HN_node_step; [exact (proj1 (proj1 Hm))|exact HHN|].
    destruct HNI as (_ & HNI). destruct (HNI k Hm) as (_ & Hnew & _). rewrite (Hnew Hph), (Hunanimous _ (proj2 Hm)).
    apply shape_start; assumption.
  - destruct (net_deliver n k now m sway HNI HHN Hok) as (S & Hvm & _ & He & _).
    apply HN_node_step; [exact (proj1 (proj1 (proj1 Hok)))|exact HHN|]. exact (shape_deliver c v Hv Hwf Hrr _ now m sway S Hh Hvm He).
Qed.

Lemma HN_net0 : HN (net0 input).
Proof. split; [intros x []|]. intros k _ Hp. cbn in Hp. congruence. Qed.

Theorem happy_run acts : forall n, NI n -> HN n -> all_ok c honest n acts -> all_happy n acts -> NI (nrun c n acts) /\ HN (nrun c n acts).
Proof.
  intros n HNI HHN Hok Hh.
  destruct (nrun_ind c honest input Hwf Hscaled Hinput (fun n acts => HN n /\ all_happy n acts)) with (acts := acts) (n := n) as (A & B & _);
    [|assumption|assumption|split; assumption|split; assumption].
  intros n0 a rest HNI0 Ha (HHN0 & Hh0 & Hrest). split; [apply happy_step; assumption|exact Hrest].
Qed.

Theorem happy_votes acts x : all_ok c honest (net0 input) acts -> all_happy (net0 input) acts ->
  In x (n_votes (nrun c (net0 input) acts)) ->
  Spec.round x = 0%nat /\ Spec.vl x = Some v /\ Spec.ph x <> Spec.CONVERGE.
Proof.
  intros Hok Hh Hx. destruct (happy_run acts (net0 input) (NI_net0 c honest input) HN_net0 Hok Hh) as (_ & HV & _). exact (HV x Hx).
Qed.
Lemma decided_started n k j : NI n -> member k -> i_term (n_inst n k) = Some j -> i_phase (n_inst n k) <> INITIAL.
Proof. intros (_ & HNI) Hm Hj Hp. destruct (HNI k Hm) as (_ & Hnew & _). rewrite (Hnew Hp) in Hj. discriminate Hj. Qed.

Theorem happy_decision acts k j : all_ok c honest (net0 input) acts -> all_happy (net0 input) acts -> member k ->
  i_term (n_inst (nrun c (net0 input) acts) k) = Some j -> j_value j = v.
Proof.
  intros Hok Hh Hm Hj. destruct (happy_run acts (net0 input) (NI_net0 c honest input) HN_net0 Hok Hh) as (HNI & _ & HS).
  exact (sh_term c v _ (HS k Hm (decided_started _ k j HNI Hm Hj)) j Hj).
Qed.
Theorem happy_round0 acts k : all_ok c honest (net0 input) acts -> all_happy (net0 input) acts -> member k ->
  i_round (n_inst (nrun c (net0 input) acts) k) = 0.
Proof.
  intros Hok Hh Hm. destruct (happy_run acts (net0 input) (NI_net0 c honest input) HN_net0 Hok Hh) as (HNI & _ & HS).
  destruct (i_phase (n_inst (nrun c (net0 input) acts) k)) eqn:Hp;
    try (apply (sh_round c v _); apply (HS k Hm); rewrite Hp; discriminate).
  destruct HNI as (_ & HNI). destruct (HNI k Hm) as (_ & Hnew & _). rewrite (Hnew Hp). reflexivity.
Qed.
End Net.

(* executable form of the synchrony hypothesis (used for the non-vacuity example) *)
Definition happy_actb (n : net) (a : action) : bool :=
  match a with
  | AStart _ _ => true
  | ADeliver k now _ _ =>
      let i := n_inst n k in
      (now <? i_ptimeout i) || phase_eqb (i_phase i) DECIDE || phase_eqb (i_phase i) TERMINATED
  | _ => false
  end.
Fixpoint all_happyb (c : config) (n : net) (acts : list action) : bool :=
  match acts with [] => true | a :: rest => happy_actb n a && all_happyb c (nstep c n a) rest end.
Lemma happy_actb_sound n a : happy_actb n a = true -> happy_act n a.
Proof.
  destruct a as [k now|k now m sway|k now sway|x]; cbn [happy_actb happy_act]; intros H; try discriminate H; [exact I|].
  unfold okt, timely. cbn [set_now clear_out i_now i_ptimeout i_phase].
  apply orb_true_iff in H. destruct H as [H|H]; [apply orb_true_iff in H; destruct H as [H|H]|].
  - left. apply Z.ltb_lt. exact H.
  - right. left. apply phase_eqb_true. exact H.
  - right. right. apply phase_eqb_true. exact H.
Qed.
Theorem all_happyb_sound c acts : forall n, all_happyb c n acts = true -> all_happy c n acts.
Proof.
  induction acts as [|a acts IH]; intros n H; cbn [all_happyb all_happy] in *; [exact I|].
  apply andb_true_iff in H. destruct H as [H1 H2]. split; [apply happy_actb_sound; exact H1|apply IH; exact H2].
Qed.
