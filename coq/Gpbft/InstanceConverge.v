(* Layer N, protocol discipline (C07), the own CONVERGE value: tryConverge never fails with "no values at CONVERGE".
   Invariant (while no internal error has occurred): once QUALITY has been settled the participant's own proposal is a
   candidate, and while it is in CONVERGE its own CONVERGE value sits in the converge state of the current round.  It
   holds in every state reachable by deliveries and timers; skipToRound entered from QUALITY keeps it only because it
   settles the QUALITY outcome first. *)
From Coq Require Import ZArith List Lia.
From F3 Require Import Instance InstanceOrder InstanceStep InstanceVotes.
Import ListNotations.
Open Scope Z_scope.

Section Cfg.
Variable c : config.

Definition conv_has (i : inst) (v : chain) : Prop :=
  cv_find (cs_values (r_conv (get_round i (i_round i)))) v <> None.
Definition PI (i : inst) : Prop :=
  In (firstn 1 (i_input i)) (i_cands i) /\
  (2 <= phase_code (i_phase i) <= 4 -> In (i_proposal i) (i_cands i)) /\
  (i_phase i = CONVERGE -> conv_has i (i_proposal i)) /\
  i_phase i <> INITIAL.
Definition NoCV (e : ierr) : Prop := e = ENoConvergeValue.
Definition NCV : inst -> Prop := NE NoCV.

(* PI does not look at clock, timers or outputs (nor at the QUALITY and DECIDE tallies: set_quality, set_decision keep it
   by conversion) *)
Lemma PI_core i i' : core i' = core i -> PI i -> PI i'.
Proof.
  intros E. destruct (core_fields _ _ E) as (E1 & E2 & _ & E4 & _ & E6 & _ & E8 & E9 & _).
  unfold PI, conv_has, get_round. rewrite E1, E2, E4, E6, E8, E9. exact (fun H => H).
Qed.

Lemma err_try_rebroadcast i : i_err (try_rebroadcast c i) = i_err i.
Proof. apply err_quiet, quiet_try_rebroadcast. Qed.

Lemma cv_find_set_self s v j : cv_find (cs_values (c_set_self s v j)) v <> None.
Proof.
  unfold c_set_self. destruct (cv_find (cs_values s) v) eqn:E; [rewrite E; discriminate|].
  cbn. induction (cs_values s) as [|x l IH]; cbn in *; [rewrite chain_eqb_refl; discriminate|].
  destruct (chain_eqb (cv_chain x) v); [discriminate E|apply IH; exact E].
Qed.
Lemma cv_find_set_keeps l w v : cv_find l v <> None -> cv_find (cv_set l w) v <> None.
Proof.
  induction l as [|x l IH]; cbn; [congruence|].
  destruct (chain_eqb (cv_chain x) (cv_chain w)) eqn:E1; cbn.
  - destruct (chain_eqb (cv_chain x) v) eqn:E2.
    + apply chain_eqb_eq in E1. rewrite <- E1, E2. discriminate.
    + destruct (chain_eqb (cv_chain w) v) eqn:E3; [discriminate|auto].
  - destruct (chain_eqb (cv_chain x) v); [discriminate|exact IH].
Qed.
Lemma cv_find_app_keeps l w v : cv_find l v <> None -> cv_find (l ++ [w]) v <> None.
Proof.
  induction l as [|x l IH]; cbn; [congruence|]. destruct (chain_eqb (cv_chain x) v); [discriminate|exact IH].
Qed.
Lemma c_receive_keeps s sender val rank j s' v :
  c_receive s sender val rank j = Some s' -> cv_find (cs_values s) v <> None -> cv_find (cs_values s') v <> None.
Proof.
  unfold c_receive. destruct val as [|x val']; [discriminate|]. destruct j as [jj|]; [|discriminate].
  destruct (memZ sender (cs_senders s)); [intros H; injection H as <-; auto|].
  destruct (cv_find (cs_values s) (x :: val')) as [old|].
  - destruct (rank_lt rank (cv_rank old)); intros H; injection H as <-; cbn; [apply cv_find_set_keeps|auto].
  - intros H; injection H as <-. cbn. apply cv_find_app_keeps.
Qed.

Lemma PI_begin_converge i j :
  In (firstn 1 (i_input i)) (i_cands i) -> In (i_proposal i) (i_cands i) ->
  i_err (begin_converge c i j) = None -> PI (begin_converge c i j).
Proof.
  intros Hb Hp. apply begin_converge_cases; intros _; [intros H; exfalso; exact (err_fail_some _ _ H)|].
  intros _. unfold PI, conv_has, get_round. cbn. repeat split; auto; try discriminate.
  intros _. rewrite rget_rset_same. cbn. apply cv_find_set_self.
Qed.
Lemma NCV_begin_converge i j : NCV i -> NCV (begin_converge c i j).
Proof. intros H. apply begin_converge_cases; intros _; [apply NE_fail; [discriminate|exact H]|exact H]. Qed.

Lemma PI_begin_next_round i :
  PI i -> i_phase i = COMMIT -> i_err (begin_next_round c i) = None -> PI (begin_next_round c i).
Proof.
  intros (Hb & Hp & _ & _) Hph.
  assert (H2 : In (i_proposal i) (i_cands i)) by (apply Hp; rewrite Hph; cbn; lia).
  apply begin_next_round_cases; intros; try (exfalso; eapply err_fail_some; eassumption).
  apply PI_begin_converge; assumption.
Qed.
Lemma NCV_begin_next_round i : NCV i -> NCV (begin_next_round c i).
Proof.
  intros H. apply begin_next_round_cases; intros; first [apply NCV_begin_converge; exact H|apply NE_fail; [discriminate|exact H]].
Qed.

Lemma PI_skip_to_round i round v j :
  PI i -> 1 <= phase_code (i_phase i) <= 4 ->
  i_err (skip_to_round c i round v j) = None -> PI (skip_to_round c i round v j).
Proof.
  intros (Hb & Hp & _ & _) Hph. destruct (skip_to_round_spec c i round v j) as (l & p & w & -> & A & F).
  apply PI_begin_converge; cbn; [apply A; exact Hb|].
  destruct F as [(_ & -> & F & _)|[(_ & _ & -> & B & _)|(_ & Hq & -> & ->)]]; [exact F|exact (settle_In i l Hb A B)|].
  apply Hp. destruct (i_phase i); cbn in *; try lia; congruence.
Qed.
Lemma NCV_skip_to_round i round v j : NCV i -> NCV (skip_to_round c i round v j).
Proof. intros H. destruct (skip_to_round_spec c i round v j) as (l & p & w & -> & _). apply NCV_begin_converge. exact H. Qed.

Lemma PI_begin_prepare i j :
  In (firstn 1 (i_input i)) (i_cands i) -> In (i_value i) (i_cands i) -> i_proposal i = i_value i -> PI (begin_prepare c i j).
Proof. intros Hb Hv Hp. unfold PI, begin_prepare. cbn. rewrite Hp. repeat split; auto; discriminate. Qed.

Lemma NCV_begin_commit i : NCV i -> NCV (begin_commit c i).
Proof. intros H. apply begin_commit_cases; intros; first [exact H|apply NE_fail; [discriminate|exact H]]. Qed.
Lemma NCV_begin_decide i round : NCV i -> NCV (begin_decide c i round).
Proof. intros H. apply begin_decide_cases; intros; [exact H|apply NE_fail; [discriminate|exact H]]. Qed.
Lemma PI_late ph i' : i_phase i' = ph -> 5 <= phase_code ph -> In (firstn 1 (i_input i')) (i_cands i') -> PI i'.
Proof.
  intros E H5 Hb. unfold PI. rewrite E. repeat split; auto; try (intros; lia).
  - intros E2. rewrite E2 in H5. cbn in H5. lia.
  - intros E2. rewrite E2 in H5. cbn in H5. lia.
Qed.
Lemma phase_begin_decide i round : i_phase (begin_decide c i round) = DECIDE /\ i_cands (begin_decide c i round) = i_cands i /\ i_input (begin_decide c i round) = i_input i.
Proof. apply begin_decide_cases; repeat split. Qed.

Lemma try_converge_ok i :
  PI i -> i_phase i = CONVERGE -> i_err i = None ->
  i_err (try_converge c i) = None /\ PI (try_converge c i).
Proof.
  intros HP Hph He. pose proof HP as (Hb & Hp & Hc & Hn).
  apply try_converge_cases; intros.
  - split; assumption.
  - split; [rewrite err_try_rebroadcast; exact He|exact (PI_core _ _ (quiet_core _ _ (quiet_try_rebroadcast c i)) HP)].
  - exfalso. revert H. apply find_best_some. right.
    specialize (Hc Hph). unfold conv_has in Hc.
    destruct (cv_find (cs_values (r_conv (get_round i (i_round i)))) (i_proposal i)) as [w|] eqn:Ew; [|congruence].
    destruct (cv_find_In _ _ _ Ew) as [Hin Hch]. exists w. split; [exact Hin|].
    unfold conv_valid. rewrite Hch. replace (is_candidate i (i_proposal i)) with true; [reflexivity|].
    symmetry. apply is_candidate_In. apply Hp. rewrite Hph. cbn. lia.
  - split; [exact He|]. apply PI_begin_prepare; cbn; [apply H0; exact Hb|exact H1|reflexivity].
Qed.

Definition Good : inst -> Prop := Post PI NoCV.
Lemma Good_quiet i i' : quiet i i' -> PI i -> i_err i = None -> Good i'.
Proof. intros Q H He. apply Post_none; [exact (PI_core i i' (quiet_core _ _ Q) H)|rewrite (err_quiet _ _ Q); exact He]. Qed.
Lemma PI_begin_commit i : In (firstn 1 (i_input i)) (i_cands i) -> In (i_proposal i) (i_cands i) -> PI (begin_commit c i).
Proof. intros Hb Hp. apply begin_commit_cases; intros; unfold PI; cbn; repeat split; auto; discriminate. Qed.

Lemma Good_try_quality i : PI i -> i_err i = None -> i_phase i = QUALITY -> Good (try_quality c i).
Proof.
  intros HP He Hph. apply try_quality_cases; intros; [apply Post_none; assumption|].
  destruct HP as (Hb & _). destruct (settle_nf i) as (l & A & B & -> & _).
  split; [intros _|apply NE_none; exact He].
  apply PI_begin_prepare; cbn; [apply A; exact Hb|exact (settle_In i l Hb A B)|reflexivity].
Qed.

Lemma Good_try_prepare i : PI i -> i_err i = None -> i_phase i = PREPARE -> Good (try_prepare c i).
Proof.
  intros HP He Hph. pose proof HP as (Hb & Hp & Hc & Hn).
  assert (G : forall v, Good (begin_commit c (set_pv i (i_proposal i) v))).
  { intros v. split; [intros _|apply NCV_begin_commit, NE_none; exact He].
    apply PI_begin_commit; cbn; [exact Hb|]. apply Hp. rewrite Hph. cbn. lia. }
  apply try_prepare_cases; intros; try apply G.
  - apply Post_none; assumption.
  - apply (Good_quiet i); [apply quiet_try_rebroadcast|exact HP|exact He].
Qed.

Lemma Good_begin_next_round x : PI x -> i_err x = None -> i_phase x = COMMIT -> Good (begin_next_round c x).
Proof. intros HP He Hph. split; [apply PI_begin_next_round; assumption|apply NCV_begin_next_round, NE_none; exact He]. Qed.

Lemma PI_adopted i l v : PI i -> i_phase i = COMMIT -> incl (i_cands i) l -> In v l -> PI (set_pv (set_cands i l) v (i_value i)).
Proof. intros (Hb & Hp & Hc & Hn) Hph Hi Hv. unfold PI, conv_has. cbn. rewrite Hph. repeat split; auto; discriminate. Qed.
Lemma Good_try_commit i round sway : PI i -> i_err i = None -> phase_code (i_phase i) < 5 -> Good (try_commit c i round sway).
Proof.
  intros HP He Hlt. apply try_commit_cases; intros.
  - split; [intros H0; exfalso; exact (err_fail_some _ _ H0)|apply NE_fail; [discriminate|apply NE_none; exact He]].
  - destruct (phase_begin_decide (set_pv i (i_proposal i) (x :: v)) round) as (A & B & C).
    split; [|apply NCV_begin_decide, NE_none; exact He]. intros _. apply (PI_late DECIDE); [exact A|cbn; lia|rewrite B, C; apply HP].
  - apply Post_none; assumption.
  - apply Good_begin_next_round; assumption.
  - apply Good_begin_next_round; [apply PI_adopted; assumption|exact He|assumption].
  - apply Good_begin_next_round; assumption.
  - apply (Good_quiet i); [apply quiet_try_rebroadcast|exact HP|exact He].
Qed.

Lemma Good_try_decide i : PI i -> i_err i = None -> i_phase i = DECIDE -> Good (try_decide c i).
Proof.
  intros HP He Hph.
  apply try_decide_cases; intros; try (split; [intros Hx; exfalso; exact (err_fail_some _ _ Hx)|apply NE_fail; [discriminate|apply NE_none; exact He]]).
  - split; [|apply NE_none; exact He]. intros _. apply (PI_late TERMINATED); [reflexivity|cbn; lia|apply HP].
  - apply (Good_quiet i); [apply quiet_try_rebroadcast|exact HP|exact He].
Qed.

Lemma Good_try_current_phase i sway : PI i -> i_err i = None -> Good (try_current_phase c i sway).
Proof.
  intros HP He. apply try_current_phase_cases; intros Hph.
  - destruct HP as (_ & _ & _ & Hn). congruence.
  - apply Good_try_quality; assumption.
  - destruct (try_converge_ok i HP Hph He) as [A B]. split; [intros _; exact B|apply NE_none; exact A].
  - apply Good_try_prepare; assumption.
  - apply Good_try_commit; [assumption|assumption|rewrite Hph; cbn; lia].
  - apply Good_try_decide; assumption.
  - apply Post_none; assumption.
Qed.

Lemma PI_set_round_state i r s :
  PI i ->
  (forall v, cv_find (cs_values (r_conv (rget (i_rounds i) r))) v <> None -> cv_find (cs_values (r_conv s)) v <> None) ->
  PI (set_round_state i r s).
Proof.
  intros (Hb & Hp & Hc & Hn) Hk. unfold PI, conv_has, get_round in *. cbn. repeat split; auto.
  intros Hph. specialize (Hc Hph). destruct (Z.eq_dec (i_round i) r) as [E|Hne].
  - rewrite E, rget_rset_same. apply Hk. rewrite <- E. exact Hc.
  - rewrite rget_rset_other by exact Hne. exact Hc.
Qed.
Lemma PI_set_cands i l : PI i -> incl (i_cands i) l -> PI (set_cands i l).
Proof. intros (Hb & Hp & Hc & Hn) Hi. unfold PI, conv_has, get_round in *. cbn. repeat split; auto. Qed.

Lemma PI_skip_to_decide i v j : PI i -> PI (skip_to_decide i v j).
Proof. intros HP. apply (PI_late DECIDE); [reflexivity|cbn; lia|apply HP]. Qed.
Lemma PI_absorb i m : PI i -> absorbs c PI NoCV i m.
Proof.
  intros HP. unfold absorbs. cbv zeta.
  assert (Hid : forall v : chain, cv_find (cs_values (r_conv (rget (i_rounds i) (m_round m)))) v <> None -> cv_find (cs_values (r_conv (rget (i_rounds i) (m_round m)))) v <> None) by auto.
  destruct (m_phase m).
  - discriminate.
  - apply (PI_set_round_state (set_quality i _)); [exact HP|exact Hid].
  - destruct (c_receive _ _ _ _ _) as [cs|] eqn:Ec; [|discriminate].
    apply PI_set_round_state; [exact HP|]. cbn. intros v Hv. eapply c_receive_keeps; [exact Ec|exact Hv].
  - apply PI_set_round_state; [exact HP|exact Hid].
  - apply PI_set_round_state; [exact HP|exact Hid].
  - apply (PI_set_round_state (set_decision i _)); [exact HP|exact Hid].
  - discriminate.
Qed.
Lemma PI_start i now : PI i -> i_err i = None -> Post PI NoCV (begin_quality c (set_now i now)).
Proof.
  (* a second start is an error of the driver, not of the instance *)
  intros (_ & _ & _ & Hn) He. apply begin_quality_cases; intros H; [apply Post_fail; [discriminate|exact He]|contradiction].
Qed.
Lemma PI_post_skip i round w : PI i -> i_err i = None -> i_phase i <> DECIDE -> i_phase i <> TERMINATED ->
  Post PI NoCV (skip_to_round c i round (cv_chain w) (cv_just w)).
Proof.
  intros HP He Hd Ht. split; [|apply NCV_skip_to_round, NE_none; exact He].
  apply PI_skip_to_round; [exact HP|]. destruct HP as (_ & _ & _ & Hn). destruct (i_phase i); cbn; try lia; congruence.
Qed.

Lemma PI_clears : clears PI. Proof. intros x H. exact H. Qed.
Lemma PI_StepInv : StepInv c PI NoCV (fun _ => True) (fun _ => True).
Proof.
  exact {| oke_msg := fun _ _ _ _ => I;
           P_restart := fun i now _ _ HP He => PI_start i now HP He;
           P_quiet := fun i i' Q => PI_core i i' (quiet_core i i' Q);
           P_cands := fun i l A _ _ HP => PI_set_cands i l HP A;
           P_tcp := fun i sw _ => Good_try_current_phase i sw;
           P_commit := fun i m sw _ _ => Good_try_commit i (m_round m) sw;
           P_skipd := fun i m _ _ _ HP _ => PI_skip_to_decide i (m_value m) (m_just m) HP;
           P_skip := fun i round w _ HP He _ Hd Ht _ => PI_post_skip i round w HP He Hd Ht;
           P_absorb := fun i m _ HP _ _ => PI_absorb i m HP |}.
Qed.

Definition started (input : chain) (now : Z) : inst := step c (new_instance input now) (EvStart now).
Lemma PI_started0 input t now : PI (step c (new_instance input t) (EvStart now)).
Proof.
  cbn [step]. apply begin_quality_cases; intros H; [exfalso; apply H; reflexivity|].
  unfold PI, conv_has. cbn. repeat split; auto; try discriminate; try (intros; lia).
Qed.
Lemma Inv_started0 input t now : Inv (step c (new_instance input t) (EvStart now)).
Proof. destruct (step_ordered c (new_instance input t) (EvStart now) (Inv_new input t) I) as (_ & H & _). exact H. Qed.
Lemma PI_started input now : PI (started input now). Proof. apply PI_started0. Qed.
Lemma Inv_started input now : Inv (started input now). Proof. apply Inv_started0. Qed.

Theorem converge_never_fails input now evs :
  input <> [] -> Forall wfe evs ->
  i_err (snd (run_hist c (started input now) evs)) <> Some ENoConvergeValue.
Proof.
  intros _ Hw.
  assert (H : Post PI NoCV (snd (run_hist c (started input now) evs))).
  { apply (Post_run c _ _ _ _ PI_StepInv); [exact PI_clears|apply Inv_started|apply Post_none; [apply PI_started|reflexivity]|].
    apply Forall_forall. intros e He. split; [exact (proj1 (Forall_forall _ _) Hw e He)|exact I]. }
  intros E. exact (proj2 H _ E eq_refl).
Qed.

End Cfg.
