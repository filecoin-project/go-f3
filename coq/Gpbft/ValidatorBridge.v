(* Bridge between the validator model (C05, Gpbft/Validator.v) and the hypothesis of the instance theorems (C07 / C01):
   a message the validator model ACCEPTS (one-shot path, what ValidateMessage admits) has the shape `wfmb` that
   no_internal_error and the refinement assume of every delivered message. *)
From Coq Require Import ZArith List Bool Lia.
From F3 Require Import GoInt Validator ValidatorProofs Instance InstanceRun.
Import ListNotations.
Open Scope Z_scope.

Definition phase_of_code (p : Z) : phase :=
  if p =? 1 then QUALITY else if p =? 2 then CONVERGE else if p =? 3 then PREPARE else if p =? 4 then COMMIT
  else if p =? 5 then DECIDE else if p =? 0 then INITIAL else TERMINATED.

(* the instance-level reading of a validated message: `v` / `jv` are the chains behind the value keys (only whether the
   value is bottom matters here), the sender index and ticket rank are irrelevant for the shape *)
Definition to_inst (m : gmsg) (sender rank : Z) (v jv : chain) : msg :=
  mkM sender (v_round (g_vote m)) (phase_of_code (v_phase (g_vote m))) v rank
      (option_map (fun j => mkJ (v_round (Validator.j_vote j)) (phase_of_code (v_phase (Validator.j_vote j))) jv (Validator.j_signers j)) (g_just m)).

Lemma just_accepts_round net cmt m : just_accepts net cmt None m = true ->
  exists j, g_just m = Some j /\
    (((v_phase (g_vote m) =? 2) || (v_phase (g_vote m) =? 3) = true -> v_round (Validator.j_vote j) = sub_u64 (v_round (g_vote m)) 1) /\
     (v_phase (g_vote m) = 4 -> v_round (Validator.j_vote j) = v_round (g_vote m))).
Proof.
  unfold just_accepts. destruct (g_just m) as [j|]; [|discriminate]. intros H. exists j. split; [reflexivity|].
  apply andb_prop in H. destruct H as [_ H]. cbv zeta in H. unfold expectation in H.
  assert (G : forall r k', (v_round (Validator.j_vote j) =? r) && (ck (v_value (Validator.j_vote j)) =? k') && just_sig_ok net cmt j k' = true ->
              v_round (Validator.j_vote j) = r).
  { intros r k' G. apply andb_prop in G. destruct G as [G _]. apply andb_prop in G. destruct G as [G _]. apply Z.eqb_eq. exact G. }
  split.
  - intros E. rewrite E in H. destruct (_ =? 4); [exact (G _ _ H)|]. destruct (_ =? 3); [exact (G _ _ H)|discriminate H].
  - intros E. rewrite E in H. cbn in H. destruct (_ =? 3); [exact (G _ _ H)|discriminate H].
Qed.

Theorem accepts_wfmb net cmt m sender rank v jv :
  accepts net cmt None m = true ->
  0 <= v_round (g_vote m) < two64 ->
  is_zero v = ch_is_zero (v_value (g_vote m)) ->
  wfmb (to_inst m sender rank v jv) = true.
Proof.
  unfold accepts. destruct (lookup_member _ _) as [mem|]; [|discriminate]. cbv zeta.
  intros H Hr Hz. apply andb_prop in H. destruct H as [H Hj]. apply andb_prop in H. destruct H as [H _].
  apply andb_prop in H. destruct H as [_ Hph].
  unfold wfmb, to_inst. cbn [m_phase m_round m_value m_just]. unfold phase_of_code. rewrite Hz.
  remember (v_phase (g_vote m)) as ph eqn:Eph. remember (v_round (g_vote m)) as rd eqn:Erd.
  destruct (Z.eqb_spec ph 1) as [->|N1]; [reflexivity|].
  destruct (Z.eqb_spec ph 2) as [->|N2].
  { cbn in Hph, Hj. apply andb_prop in Hph. destruct Hph as [Hph _]. apply andb_prop in Hph. destruct Hph as [Hr0 Hnb].
    rewrite Hnb. apply negb_true_iff, Z.eqb_neq in Hr0. destruct (just_accepts_round net cmt m Hj) as (j & -> & R1 & _).
    cbn [option_map j_round andb negb]. apply Z.eqb_eq. rewrite <- Eph, <- Erd in R1. rewrite (R1 eq_refl). apply sub_u64_small; lia. }
  destruct (Z.eqb_spec ph 3) as [->|N3].
  { cbn in Hj. destruct (Z.eqb_spec rd 0) as [E0|N0]; cbn in Hj.
    - destruct (g_just m); [discriminate Hj|reflexivity].
    - destruct (just_accepts_round net cmt m Hj) as (j & -> & R1 & _).
      cbn [option_map j_round]. apply Z.eqb_eq. rewrite <- Eph, <- Erd in R1. rewrite (R1 eq_refl). apply sub_u64_small; lia. }
  destruct (Z.eqb_spec ph 4) as [->|N4].
  { cbn in Hj. destruct (ch_is_zero (v_value (g_vote m))); [reflexivity|]. cbn in Hj.
    destruct (just_accepts_round net cmt m Hj) as (j & -> & _ & R2). cbn [option_map j_round orb]. apply Z.eqb_eq.
    rewrite <- Eph, <- Erd in R2. exact (R2 eq_refl). }
  destruct (Z.eqb_spec ph 5) as [->|N5].
  { cbn in Hph. apply andb_prop in Hph. apply Hph. }
  exfalso. revert Hph. repeat match goal with |- context [ph =? ?k] => replace (ph =? k) with false by (symmetry; apply Z.eqb_neq; assumption) end. cbn. discriminate.
Qed.
