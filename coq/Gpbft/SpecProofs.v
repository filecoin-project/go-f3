From Coq Require Import ZArith List Bool Lia.
From F3 Require Import ListX Spec Sets.
Import ListNotations.
Open Scope Z_scope.

Section Proofs.
  Variable power : nat -> Z.
  Hypothesis power_nonneg : forall n, 0 <= power n.
  Variable committee : list nat.
  Hypothesis committee_nodup : NoDup committee.
  Variable honest : nat -> bool.
  Variable input : nat -> chain.
  (* less than one third of the (scaled) power is faulty *)
  Hypothesis byz_lt_third : 3 * byz_power power committee honest < total power committee.

  Notation psum := (psum power).
  Notation total := (total power committee).
  Notation byz_power := (byz_power power committee honest).
  Notation strong := (strong power committee).
  Notation SQ := (SQ power committee honest).
  Notation justified := (justified power committee honest).
  Notation guard := (guard power committee honest input).
  Notation Inv := (Inv power committee honest input).

  Lemma honest_or_byz l : NoDup l -> incl l committee -> (exists s, In s l /\ honest s = true) \/ psum l <= byz_power.
  Proof.
    intros Hn Hi. destruct (existsb honest l) eqn:E. { left. apply existsb_exists. exact E. }
    right. apply (sumf_incl_nodup power power_nonneg); [exact Hn|].
    intros x Hx. apply filter_In. split; [apply Hi; exact Hx|].
    destruct (honest x) eqn:Hh; [exfalso|reflexivity].
    assert (existsb honest l = true) by (apply existsb_exists; eauto). congruence.
  Qed.
  Lemma strong_intersect A B : strong A -> strong B -> exists s, In s A /\ In s B /\ honest s = true.
  Proof using power_nonneg byz_lt_third input.
    intros [HA [IA SA]] [HB [IB SB]].
    set (I := filter (fun x => existsb (Nat.eqb x) B) A).
    assert (Hb : psum A + psum B <= total + psum I) by exact (inter_bound power power_nonneg committee A B HA HB IA IB).
    destruct (honest_or_byz I) as [(s & Hs & Hh)|Hle].
    - apply NoDup_filter. exact HA.
    - intros x Hx. apply filter_In in Hx. apply IA. apply Hx.
    - apply filter_In in Hs. destruct Hs as [Hs1 Hs2]. apply existsb_Neqb_In in Hs2. eauto.
    - exfalso. lia.
  Qed.
  Lemma strong_has_honest S : strong S -> exists s, In s S /\ honest s = true.
  Proof. intros H. destruct (strong_intersect S S H H) as (s & Hs & _ & Hh). eauto. Qed.

  Lemma SQ_mono vs vs' r p x : incl vs vs' -> SQ vs r p x -> SQ vs' r p x.
  Proof. intros Hi [S [HS Hall]]. exists S. split; auto. Qed.
  Lemma justified_mono vs vs' r x : incl vs vs' -> justified vs r x -> justified vs' r x.
  Proof.
    intros Hi [H|[r0 [E [H|H]]]]; [left; auto| |]; right; exists r0; split; auto; [left|right]; eapply SQ_mono; eauto.
  Qed.
  Lemma guard_mono vs vs' v : incl vs vs' -> guard vs v -> guard vs' v.
  Proof.
    intros Hi. unfold Spec.guard. destruct (ph v), (vl v) as [w|]; auto.
    - intros [r0 [E [H|H]]]; exists r0; split; auto; [left|right]; eapply SQ_mono; eauto.
    - destruct (round v) as [|r0]; auto.
      intros [H|[H1 [H2|[r1 [L H2]]]]]; [left; eapply SQ_mono; eauto| |]; right; (split; [eapply SQ_mono; eauto|]); auto.
      right. exists r1. split; auto. eapply SQ_mono; eauto.
    - intros [H1 H2]. split; auto. eapply SQ_mono; eauto.
    - intros [w [H1 [t [x [Hne [H2 H3]]]]]]. exists w. split; auto. exists t, x. repeat split; auto. eapply justified_mono; eauto.
    - intros [H0 [r H]]. split; auto. exists r. eapply SQ_mono; eauto.
  Qed.

  (* every reachable vote set satisfies the invariant *)
  Theorem reachable_inv vs : reachable power committee honest input vs -> Inv vs.
  Proof.
    induction 1 as [|vs v R IH St]. { split; [intros v []|intros s r p x y _ []]. }
    destruct IH as [G U]. split.
    - intros u [<-|Hu] Hh.
      + inversion St as [v' Hv Hg _|v' Hv]; subst; [|congruence]. eapply guard_mono; [|exact Hg]. intros z Hz; right; auto.
      + eapply guard_mono; [|apply G; auto]. intros z Hz; right; auto.
    - intros s r p x y Hh [E1|H1] [E2|H2].
      + congruence.
      + inversion St as [v' Hv Hg Hnew|v' Hv]; subst; [|cbn in *; congruence]. cbn in *. exfalso. eapply Hnew; eauto.
      + inversion St as [v' Hv Hg Hnew|v' Hv]; subst; [|cbn in *; congruence]. cbn in *. exfalso. eapply Hnew; eauto.
      + eapply U; eauto.
  Qed.

  Section WithInv.
  Variable vs : list vote.
  Hypothesis HInv : Inv vs.

  Lemma sq_guard r p x : SQ vs r p x -> exists s, honest s = true /\ In (V s r p x) vs /\ guard vs (V s r p x).
  Proof.
    intros [S [HS Hall]]. destruct (strong_has_honest S HS) as [s [Hin Hh]].
    exists s. split; [exact Hh|]. split; [auto|]. apply HInv; auto.
  Qed.

  Lemma sq_unique r p x y : SQ vs r p x -> SQ vs r p y -> x = y.
  Proof.
    intros [A [HA Ha]] [B [HB Hb]]. destruct (strong_intersect A B HA HB) as [s [H1 [H2 Hh]]].
    destruct HInv as [_ Honce]. eapply Honce; eauto.
  Qed.

  Lemma commit_sq_prepare_sq r w : SQ vs r COMMIT (Some w) -> SQ vs r PREPARE (Some w).
  Proof. intro H. destruct (sq_guard _ _ _ H) as (s & _ & _ & G). exact (proj2 G). Qed.

  Lemma decides_commit_sq v : decides power committee honest vs v -> exists r, SQ vs r COMMIT (Some v).
  Proof. intro H. destruct (sq_guard _ _ _ H) as (s & _ & _ & G). exact (proj2 G). Qed.

  Section Lock.
  Variable r0 : nat. Variable v0 : chain.
  Hypothesis Hlock : SQ vs r0 COMMIT (Some v0).

  Definition LockAt (r : nat) := (forall x, SQ vs r PREPARE x -> x = Some v0) /\ ~ SQ vs r COMMIT None.

  Lemma lock_base : LockAt r0.
  Proof.
    split.
    - intros x Hx. symmetry. eapply sq_unique; [apply commit_sq_prepare_sq; exact Hlock | exact Hx].
    - intro Hn. assert (Some v0 = None) by (eapply sq_unique; eauto). discriminate.
  Qed.

  Lemma justified_after r x : LockAt r -> justified vs (S r) x -> x = Some v0.
  Proof.
    intros [Ha Hb] [Hz | [r1 [Heq [Hp | Hc]]]]; [discriminate| |]; inversion Heq; subst; auto. contradiction.
  Qed.

  Lemma lock_prepare r s w : LockAt r -> honest s = true -> In (V s (S r) PREPARE (Some w)) vs -> Some w = Some v0.
  Proof.
    intros [La Lb] Hh Hin. destruct (proj1 HInv _ Hin Hh) as [G|[G _]]; [apply La; exact G|contradiction].
  Qed.

  Lemma lock_step r : LockAt r -> LockAt (S r).
  Proof.
    intros HL. split.
    - intros x Hx. destruct (sq_guard _ _ _ Hx) as (s & Hh & Hin & G).
      destruct x as [w|]; [exact (lock_prepare r s w HL Hh Hin)|contradiction].
    - intro Hn. destruct (sq_guard _ _ _ Hn) as (s & Hh & _ & w & Hp & t & x & Hne & _ & Hj).
      apply (lock_prepare r s w HL Hh) in Hp. apply (justified_after r _ HL) in Hj. congruence.
  Qed.

  Lemma lock_all r : (r0 <= r)%nat -> LockAt r.
  Proof. induction 1; [apply lock_base | apply lock_step; auto]. Qed.
  End Lock.

  Theorem agreement_inv v w : decides power committee honest vs v -> decides power committee honest vs w -> v = w.
  Proof.
    intros Hv Hw. destruct (decides_commit_sq v Hv) as [r1 H1]. destruct (decides_commit_sq w Hw) as [r2 H2].
    destruct (Nat.le_ge_cases r1 r2) as [L|L].
    - destruct (lock_all r1 v H1 r2 L) as [Ha _]. specialize (Ha _ (commit_sq_prepare_sq _ _ H2)). congruence.
    - destruct (lock_all r2 w H2 r1 L) as [Ha _]. specialize (Ha _ (commit_sq_prepare_sq _ _ H1)). congruence.
  Qed.

  Definition from_honest_input (w : chain) : Prop := exists q, honest q = true /\ is_prefix w (input q).

  (* by induction on the round: a prepared value is a prefix of the own input or was prepared by an honest member earlier *)
  Lemma prepare_valid : forall r s w, honest s = true -> In (V s r PREPARE (Some w)) vs -> from_honest_input w.
  Proof.
    induction r as [r IHr] using (well_founded_induction lt_wf). intros s w Hh Hin.
    pose proof (proj1 HInv _ Hin Hh) as G. unfold Spec.guard in G; simpl in G.
    destruct r as [|r0]; [exists s; auto|].
    destruct G as [G|[_ [G|[r1 [L G]]]]].
    - destruct (sq_guard _ _ _ G) as (t & Ht & Hi & _). apply (IHr r0 ltac:(lia) t w Ht Hi).
    - exists s. auto.
    - destruct (sq_guard _ _ _ G) as (t & Ht & Hi & _). apply (IHr r1 ltac:(lia) t w Ht Hi).
  Qed.

  Lemma commit_valid r s w : honest s = true -> In (V s r COMMIT (Some w)) vs -> from_honest_input w.
  Proof. intros Hh Hin. destruct (proj1 HInv _ Hin Hh) as [Hp _]. eapply prepare_valid; eauto. Qed.

  Theorem validity_inv v : decides power committee honest vs v -> from_honest_input v.
  Proof.
    intros Hv. destruct (decides_commit_sq v Hv) as [r H]. destruct (sq_guard _ _ _ H) as (t & Ht & Hi & _).
    eapply commit_valid; eauto.
  Qed.
  End WithInv.

  Theorem agreement vs v w : reachable power committee honest input vs ->
    decides power committee honest vs v -> decides power committee honest vs w -> v = w.
  Proof. intros R. apply agreement_inv. apply reachable_inv; auto. Qed.

  Theorem validity vs v : reachable power committee honest input vs ->
    decides power committee honest vs v ->
    v <> [] /\ exists q, honest q = true /\ is_prefix v (input q).
  Proof.
    intros R D. destruct (validity_inv vs (reachable_inv vs R) v D) as [q [Hq P]]. split; [apply P|eauto].
  Qed.

  (* a decided value starts at the common base *)
  Theorem validity_base vs v base : reachable power committee honest input vs ->
    (forall q, honest q = true -> exists rest, input q = base :: rest) ->
    decides power committee honest vs v -> exists rest, v = base :: rest.
  Proof.
    intros R Hb D. destruct (validity vs v R D) as [Hne [q [Hq [_ [rest E]]]]].
    destruct (Hb q Hq) as [r' Eq]. rewrite Eq in E. destruct v as [|x v']; [contradiction|].
    cbn in E. inversion E; subst. eauto.
  Qed.

  Lemma chain_eqb_eq a b : chain_eqb a b = true <-> a = b.
  Proof. exact (ListX.eqb_listZ_eq a b). Qed.
  Lemma val_eqb_eq a b : val_eqb a b = true <-> a = b.
  Proof.
    destruct a as [x|], b as [y|]; cbn; try (split; congruence).
    rewrite chain_eqb_eq. split; [intros ->; auto | intros H; inversion H; auto].
  Qed.
  Lemma phase_eqb_eq a b : phase_eqb a b = true <-> a = b.
  Proof. destruct a, b; cbn; split; congruence. Qed.
  Lemma vote_eqb_eq a b : vote_eqb a b = true -> a = b.
  Proof.
    unfold vote_eqb. rewrite !andb_true_iff, !Nat.eqb_eq, phase_eqb_eq, val_eqb_eq.
    destruct a, b; cbn. intros [[[-> ->] ->] ->]. reflexivity.
  Qed.
  Lemma has_vote_in vs v : has_vote vs v = true -> In v vs.
  Proof. unfold has_vote. rewrite existsb_exists. intros [y [Hy E]]. apply vote_eqb_eq in E. subst; auto. Qed.

  Lemma sqb_sound vs r p x : sqb power committee honest vs r p x = true -> SQ vs r p x.
  Proof.
    unfold sqb. intros H. apply Z.geb_le in H. exists (supporters committee honest vs r p x). split.
    - split; [apply NoDup_filter; auto|]. split; [intros z Hz; apply filter_In in Hz; apply Hz | lia].
    - intros s Hs Hh. apply filter_In in Hs. destruct Hs as [_ Hs]. rewrite Hh in Hs. cbn in Hs. apply has_vote_in; auto.
  Qed.

  Lemma prefixb_spec v w : prefixb v w = true -> exists rest, w = v ++ rest.
  Proof.
    revert w. induction v as [|x v IH]; intros w H; cbn in *. { exists w; auto. }
    destruct w as [|y w]; [discriminate|]. apply andb_true_iff in H. destruct H as [E H]. apply Z.eqb_eq in E. subst.
    destruct (IH w H) as [rest ->]. exists rest. reflexivity.
  Qed.
  Lemma is_prefixb_sound v w : is_prefixb v w = true -> is_prefix v w.
  Proof. unfold is_prefixb, is_prefix. destruct v as [|x v]; [discriminate|]. intros H. split; [discriminate|]. apply prefixb_spec; auto. Qed.
  Lemma exists_upto_spec f n : exists_upto f n = true -> exists k, (k <= n)%nat /\ f k = true.
  Proof.
    induction n as [|n IH]; cbn; intros H. { exists 0%nat. auto. }
    apply orb_true_iff in H. destruct H as [H|H]; [exists (S n); auto|]. destruct (IH H) as [k [L E]]. exists k. split; auto.
  Qed.

  Lemma justifiedb_sound vs r x : justifiedb power committee honest vs r x = true -> justified vs r x.
  Proof.
    unfold justifiedb, Spec.justified. destruct r as [|r0]; [left; auto|]. intros H. right. exists r0. split; auto.
    apply orb_true_iff in H. destruct H as [H|H]; [left|right]; apply sqb_sound; auto.
  Qed.

  Lemma if_and (a b : bool) : (if a then b else false) = true -> a = true /\ b = true.
  Proof. destruct a; [auto|discriminate]. Qed.

  Theorem guardb_sound vs v : guardb power committee honest input vs v = true -> guard vs v.
  Proof.
    unfold guardb, Spec.guard. destruct v as [s r p x]; cbn [Spec.ph Spec.vl Spec.round Spec.sender].
    destruct p, x as [w|]; try discriminate.
    - intros H. apply andb_true_iff in H. destruct H as [A B]. apply Nat.eqb_eq in A. apply chain_eqb_eq in B. auto.
    - destruct r as [|r0]; [discriminate|]. intros H. exists r0. split; auto.
      apply orb_true_iff in H. destruct H as [H|H]; [left|right]; apply sqb_sound; auto.
    - destruct r as [|r0]. { apply is_prefixb_sound. }
      intros H. apply orb_true_iff in H. destruct H as [H|H]; [left; apply sqb_sound; auto|].
      apply andb_true_iff in H. destruct H as [A B]. right. split; [apply sqb_sound; auto|].
      apply orb_true_iff in B. destruct B as [B|B]; [left; apply is_prefixb_sound; auto|].
      right. apply exists_upto_spec in B. destruct B as [k [L E]]. exists k. split; auto. apply sqb_sound; auto.
    - intros H. apply andb_true_iff in H. destruct H as [A B]. split; [apply has_vote_in; auto | apply sqb_sound; auto].
    - intros H. apply existsb_exists in H. destruct H as [pv [Hpv H]].
      apply if_and in H. destruct H as [H H0].
      repeat (apply andb_true_iff in H; destruct H as [H ?]).
      apply Nat.eqb_eq in H, H2. apply phase_eqb_eq in H1.
      destruct pv as [ps pr pp px]; cbn in *. subst. destruct px as [w|]; [|discriminate].
      exists w. split; auto. apply existsb_exists in H0. destruct H0 as [ov [Hov H0]].
      apply if_and in H0. destruct H0 as [H0 Hj].
      repeat (apply andb_true_iff in H0; destruct H0 as [H0 ?]).
      apply Nat.eqb_eq in H0. apply phase_eqb_eq in H1. destruct ov as [os or' op ox]; cbn in *. subst.
      exists os, ox. split.
      { intros E. subst. apply negb_true_iff in H. assert (val_eqb (Some w) (Some w) = true) by (apply val_eqb_eq; auto). congruence. }
      split; auto. apply justifiedb_sound; auto.
    - intros H. apply andb_true_iff in H. destruct H as [A B]. apply Nat.eqb_eq in A. split; auto.
      apply existsb_exists in B. destruct B as [cv [_ B]]. apply if_and in B. destruct B as [_ B].
      exists (Spec.round cv). apply sqb_sound; auto.
  Qed.

  (* a trace accepted by the monitor is an execution of the transition system *)
  Lemma conforms_reachable future : forall past, reachable power committee honest input past ->
    conforms power committee honest input past future = true ->
    reachable power committee honest input (rev future ++ past).
  Proof.
    induction future as [|v rest IH]; intros past R H; cbn in *; auto.
    apply andb_true_iff in H. destruct H as [Hv Hr].
    rewrite <- app_assoc. cbn.
    apply IH; auto. constructor; auto.
    destruct (honest (Spec.sender v)) eqn:Hh; [|apply step_byz; auto].
    apply andb_true_iff in Hv. destruct Hv as [G N]. apply step_honest; auto. { apply guardb_sound; auto. }
    intros y Hin. apply negb_true_iff in N. assert (existsb (fun o => Nat.eqb (Spec.sender o) (Spec.sender v) && Nat.eqb (Spec.round o) (Spec.round v) && phase_eqb (Spec.ph o) (Spec.ph v)) past = true); [|congruence].
    apply existsb_exists. eexists. split; [exact Hin|]. cbn. rewrite !Nat.eqb_refl. cbn. apply phase_eqb_eq; auto.
  Qed.

  Theorem conforming_trace_safe trace v w : conforms power committee honest input [] trace = true ->
    decides power committee honest (rev trace) v -> decides power committee honest (rev trace) w -> v = w.
  Proof.
    intros C. pose proof (conforms_reachable trace [] (reach_nil _ _ _ _) C) as R. rewrite app_nil_r in R.
    apply agreement; auto.
  Qed.
End Proofs.
