(* Life cycle of instances inside a participant: between two calls of StartInstanceAt by the host, every instance is
   EXECUTED AT MOST ONCE and its decision is handed over at most once; the instance number never decreases; and after a
   failed hand-over of a decision nothing runs until the host starts an instance again.  With one execution per instance,
   "at most one message per (round, step)" of the instance model (C07) becomes "at most one message per (instance, round,
   step)" of the participant -- what C01's one-vote-per-slot hypothesis about honest participants needs. *)
From Coq Require Import ZArith List Bool Lia.
From F3 Require Import Lifecycle.
Import ListNotations.
Open Scope Z_scope.

Definition is_start (e : lev) : bool := match e with LStartAt _ => true | _ => false end.

(* everything begun or reported lies at or below the current instance; an instance that is running or still to be begun
   has not been begun / reported before *)
Definition LInv (s : lstate) : Prop :=
  NoDup (l_execs s) /\ NoDup (l_reported s) /\
  (forall i, In i (l_execs s) -> i <= l_id s) /\ (forall i, In i (l_reported s) -> In i (l_execs s)) /\
  (l_running s = true -> In (l_id s) (l_execs s) /\ ~ In (l_id s) (l_reported s)) /\
  (l_running s = false -> l_alarm s = true -> ~ In (l_id s) (l_execs s)).

Lemma LInv0 : LInv l0.
Proof. repeat split; try constructor; cbn; intros; try contradiction; try discriminate. Qed.

Ltac linv_split := split; [|split; [|split; [|split; [|split]]]].
Lemma handle_inv s t r a : LInv s -> l_running s = true -> LInv (handle s t r a).
Proof.
  intros (N1 & N2 & B & R & Hr & Hn) Hrun. destruct (Hr Hrun) as (He & Hnr). unfold handle.
  (* terminated and accepted / refused / still running; left are the clauses with something to argue *)
  destruct t; [destruct a|]; linv_split; cbn; trivial; try (intros; discriminate).
  - constructor; assumption.
  - intros i Hi. specialize (B i Hi). lia.
  - intros i [<-|Hi]; [exact He|exact (R i Hi)].
  - intros _ _ Hin. specialize (B _ Hin). lia.
  - constructor; assumption.
  - intros i [<-|Hi]; [exact He|exact (R i Hi)].
  - intros _. split; assumption.
Qed.

Theorem lstep_inv s e : LInv s -> is_start e = false -> LInv (lstep s e).
Proof.
  intros HI Hs. destruct e as [inst|b t r a|inst t r a]; [discriminate Hs| |]; cbn [lstep].
  - destruct (l_alarm s) eqn:Ea; cbn [negb]; [|exact HI].
    destruct HI as (N1 & N2 & B & R & Hr & Hn).
    destruct (l_running s) eqn:Erun.
    + apply handle_inv; [|reflexivity]. linv_split; cbn; try assumption. intros X; discriminate X.
    + destruct b.
      * specialize (Hn eq_refl Ea). apply handle_inv; [|reflexivity]. linv_split; cbn.
        -- constructor; assumption.
        -- exact N2.
        -- intros i [<-|Hi]; [lia|exact (B i Hi)].
        -- intros i Hi. right. exact (R i Hi).
        -- intros _. split; [left; reflexivity|]. intros Hin. apply Hn. exact (R _ Hin).
        -- intros X; discriminate X.
      * linv_split; cbn; try assumption. intros _ X; discriminate X.
  - destruct (inst <? l_id s); [exact HI|]. destruct (l_running s && (inst =? l_id s)) eqn:E; [|exact HI].
    apply andb_true_iff in E. destruct E as [E _]. apply handle_inv; assumption.
Qed.

Lemma handle_id s t r a : l_id s <= l_id (handle s t r a).
Proof. unfold handle. destruct t; [destruct a|]; cbn; lia. Qed.
Lemma lstep_id_mono s e : is_start e = false -> l_id s <= l_id (lstep s e).
Proof.
  intros Hs. destruct e as [inst|b t r a|inst t r a]; [discriminate Hs| |]; cbn [lstep].
  - destruct (negb (l_alarm s)); [lia|]. destruct (l_running s); [|destruct b; [|cbn; lia]];
      (eapply Z.le_trans; [|apply handle_id]); apply Z.le_refl.
  - destruct (inst <? l_id s); [lia|]. destruct (l_running s && (inst =? l_id s)); [apply handle_id|lia].
Qed.

Fixpoint no_start (evs : list lev) : bool := match evs with [] => true | e :: r => negb (is_start e) && no_start r end.

Lemma lrun_inv (P : lstate -> Prop) :
  (forall s e, P s -> is_start e = false -> P (lstep s e)) ->
  forall evs s, P s -> no_start evs = true -> P (lrun s evs).
Proof.
  intros Hstep. induction evs as [|e evs IH]; intros s H Hn; cbn [lrun fold_left]; [exact H|].
  cbn in Hn. apply andb_true_iff in Hn. destruct Hn as [H1 H2]. apply negb_true_iff in H1.
  apply IH; [apply Hstep; assumption|exact H2].
Qed.

Theorem run_inv evs : forall s, LInv s -> no_start evs = true -> LInv (lrun s evs).
Proof. apply (lrun_inv LInv lstep_inv). Qed.

(* StartInstanceAt(i) on a participant that has never run i or anything later (the host starts instances in increasing
   order: F3 resumes from the certificate store) establishes the invariant *)
Definition fresh_start (s : lstate) (i : Z) : Prop :=
  NoDup (l_execs s) /\ NoDup (l_reported s) /\ (forall j, In j (l_execs s) -> j < i) /\ (forall j, In j (l_reported s) -> In j (l_execs s)).
Lemma start_inv s i : fresh_start s i -> LInv (lstep s (LStartAt i)).
Proof.
  intros (N1 & N2 & B & R). cbn. linv_split; cbn; try assumption.
  - intros j Hj. specialize (B j Hj). lia.
  - intros X; discriminate X.
  - intros _ _ Hin. specialize (B _ Hin). lia.
Qed.

(* after a failed hand-over (no instance, no alarm) nothing runs and nothing is reported until the host starts again *)
Definition idle (s : lstate) : Prop := l_running s = false /\ l_alarm s = false.
Lemma idle_step s e : idle s -> is_start e = false -> lstep s e = s.
Proof.
  intros (Hr & Ha) Hs. destruct e as [inst|b t r a|inst t r a]; [discriminate Hs| |]; cbn [lstep].
  - rewrite Ha. reflexivity.
  - rewrite Hr. cbn [andb]. destruct (inst <? l_id s); reflexivity.
Qed.

(* non-vacuity: instance 3 decides and is accepted, instance 4 decides but the host fails to accept it, alarms and late
   messages for 4 keep coming: 4 is not run again *)
Example lifecycle_example :
  let f := lrun l0 [LStartAt 3; LAlarm true false true true; LDeliver 3 true false true; LAlarm true false true true;
                    LDeliver 4 true false false; LAlarm true false true true; LDeliver 4 true true true; LAlarm true true true true] in
  l_execs f = [4; 3] /\ l_reported f = [4; 3] /\ l_id f = 4 /\ l_running f = false /\ l_alarm f = false.
Proof. repeat split. Qed.
