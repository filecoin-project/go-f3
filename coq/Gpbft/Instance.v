(* Layer N: executable mirror of one GPBFT instance (gpbft/gpbft.go: instance, quorumState, convergeState),
   function by function.  No proofs here.  Chains are lists of tipset tokens, [] = bottom; senders are power-table
   indices; a justification is (round, phase, value, signer indices); ticket ranks are integers (smaller = better;
   the harness passes the order of the real ComputeTicketRank values).  Outputs (broadcast / rebroadcast / alarm),
   the decision (i_term) and internal errors / panics are recorded in the state.  The quorum predicates are the GENERATED ones. *)
From Coq Require Import ZArith List Bool.
From F3 Require Import GoInt QuorumGen.
Import ListNotations.
Open Scope Z_scope.

Definition chain := list Z.
Inductive phase := INITIAL | QUALITY | CONVERGE | PREPARE | COMMIT | DECIDE | TERMINATED.
Definition phase_code (p : phase) : Z :=
  match p with INITIAL => 0 | QUALITY => 1 | CONVERGE => 2 | PREPARE => 3 | COMMIT => 4 | DECIDE => 5 | TERMINATED => 6 end.
Definition phase_eqb (a b : phase) : bool := phase_code a =? phase_code b.

Fixpoint chain_eqb (a b : chain) : bool :=
  match a, b with [], [] => true | x :: a', y :: b' => (x =? y) && chain_eqb a' b' | _, _ => false end.
Definition is_zero (c : chain) : bool := match c with [] => true | _ => false end.

Record just := mkJ { j_round : Z; j_phase : phase; j_value : chain; j_signers : list Z }.
Record msg := mkM { m_sender : Z; m_round : Z; m_phase : phase; m_value : chain; m_rank : Z; m_just : option just }.

(* ---------- configuration ---------- *)
Record config := mkCfg {
  c_powers : list Z;            (* scaled power by table index *)
  c_total : Z;                  (* ScaledTotal *)
  c_lookahead : Z;              (* maxLookaheadRounds *)
  c_rebro_round : Z;            (* rebroadcastImmediatelyAfterRound *)
  c_quality_timeout : Z;        (* 2 * delta * qualityDeltaMulti at round 0 *)
  c_timeouts : list Z;          (* 2 * delta * exponent^round, by round *)
  c_rebro_after : list Z;       (* rebroadcastAfter(attempt) *)
}.
Definition nthZ (l : list Z) (i : Z) : Z := nth (Z.to_nat i) l (last l 0).
Definition power_of (c : config) (s : Z) : Z := if (s <? 0) || (Z.of_nat (length (c_powers c)) <=? s) then 0 else nth (Z.to_nat s) (c_powers c) 0.

(* ---------- quorum state ---------- *)
Record support := mkSup { s_chain : chain; s_power : Z; s_signers : list Z; s_sq : bool }.
Record qstate := mkQ { q_senders : list Z; q_spower : Z; q_support : list support; q_just : list (chain * just) }.
Definition q_empty : qstate := mkQ [] 0 [] [].
Definition memZ (x : Z) (l : list Z) : bool := existsb (Z.eqb x) l.

Fixpoint sup_find (l : list support) (k : chain) : option support :=
  match l with [] => None | s :: r => if chain_eqb (s_chain s) k then Some s else sup_find r k end.
Fixpoint sup_set (l : list support) (s : support) : list support :=
  match l with [] => [s] | x :: r => if chain_eqb (s_chain x) (s_chain s) then s :: r else x :: sup_set r s end.

(* receiveInner *)
Definition q_receive_inner (c : config) (q : qstate) (sender : Z) (v : chain) (pw : Z) : qstate :=
  let cand := match sup_find (q_support q) v with Some s => s | None => mkSup v 0 [] false end in
  let p := s_power cand + pw in
  mkQ (q_senders q) (q_spower q) (sup_set (q_support q) (mkSup v p (s_signers cand ++ [sender]) (isStrongQuorum p (c_total c)))) (q_just q).
(* receiveSender + Receive *)
Definition q_receive (c : config) (q : qstate) (sender : Z) (v : chain) : qstate :=
  if memZ sender (q_senders q) then q else
  let pw := power_of c sender in
  q_receive_inner c (mkQ (q_senders q ++ [sender]) (q_spower q + pw) (q_support q) (q_just q)) sender v pw.
(* ReceiveEachPrefix (QUALITY): every prefix longer than the base *)
Fixpoint prefixes_from (acc rest : chain) : list chain :=
  match rest with [] => [] | x :: r => (acc ++ [x]) :: prefixes_from (acc ++ [x]) r end.
(* `for j := range values.Suffix() { values.Prefix(j+1) }`: the base-only prefix is NOT recorded *)
Definition all_prefixes (v : chain) : list chain := match v with [] => [] | b :: r => prefixes_from [b] r end.
Definition q_receive_prefixes (c : config) (q : qstate) (sender : Z) (v : chain) : qstate :=
  if memZ sender (q_senders q) then q else
  let pw := power_of c sender in
  fold_left (fun q p => q_receive_inner c q sender p pw) (all_prefixes v)
            (mkQ (q_senders q ++ [sender]) (q_spower q + pw) (q_support q) (q_just q)).
Definition q_receive_just (q : qstate) (v : chain) (j : just) : qstate :=
  if existsb (fun e => chain_eqb (fst e) v) (q_just q) then q else mkQ (q_senders q) (q_spower q) (q_support q) (q_just q ++ [(v, j)]).

Definition q_has_sq (q : qstate) (k : chain) : bool := match sup_find (q_support q) k with Some s => s_sq s | None => false end.
Definition q_from_strong (c : config) (q : qstate) : bool := isStrongQuorum (q_spower q) (c_total c).
Definition q_from_weak (c : config) (q : qstate) : bool := hasWeakQuorum (q_spower q) (c_total c).
Definition q_could_reach (c : config) (q : qstate) (k : chain) (adv : bool) : bool :=
  match sup_find (q_support q) k with
  | Some s => couldReachStrongQuorumFor adv (s_power s) true (q_spower q) (c_total c)
  | None => couldReachStrongQuorumFor adv 0 false (q_spower q) (c_total c)
  end.
(* GetJustificationOf *)
Definition q_get_just (q : qstate) (ph : phase) (k : chain) : option just :=
  match k with
  | [] => match filter (fun e => is_zero (j_value (snd e)) && phase_eqb (j_phase (snd e)) ph) (q_just q) with e :: _ => Some (snd e) | [] => None end
  | _ => match filter (fun e => chain_eqb (fst e) k) (q_just q) with
         | e :: _ => if phase_eqb (j_phase (snd e)) ph then Some (snd e) else None
         | [] => None end
  end.
Definition q_has_just (q : qstate) (ph : phase) (k : chain) : bool := match q_get_just q ph k with Some _ => true | None => false end.

(* FindStrongQuorumFor: signers sorted by table index, minimal prefix reaching a strong quorum *)
Fixpoint insert_sorted (x : Z) (l : list Z) : list Z :=
  match l with [] => [x] | y :: r => if x <? y then x :: l else y :: insert_sorted x r end.
Definition sortZ (l : list Z) : list Z := fold_right insert_sorted [] l.
Fixpoint take_quorum (c : config) (signers : list Z) (acc : list Z) (pw : Z) : option (list Z) :=
  match signers with
  | [] => None
  | s :: r => let pw' := pw + power_of c s in
              if isStrongQuorum pw' (c_total c) then Some (acc ++ [s]) else take_quorum c r (acc ++ [s]) pw'
  end.
Inductive fsq := FsqNone | FsqPanic | FsqSome (signers : list Z).
Definition q_find_sq_for (c : config) (q : qstate) (k : chain) : fsq :=
  match sup_find (q_support q) k with
  | Some s => if s_sq s then match take_quorum c (sortZ (s_signers s)) [] 0 with Some l => FsqSome l | None => FsqPanic end else FsqNone
  | None => FsqNone
  end.
(* FindStrongQuorumValue: panics if several values have a strong quorum *)
Inductive fsv := FsvNone | FsvPanic | FsvSome (v : chain).
Definition q_find_sq_value (q : qstate) : fsv :=
  match filter s_sq (q_support q) with [] => FsvNone | [s] => FsvSome (s_chain s) | _ => FsvPanic end.
Definition q_all_values (q : qstate) : list chain := map s_chain (q_support q).
(* FindStrongQuorumValueForLongestPrefixOf *)
Definition q_longest_prefix (q : qstate) (preferred : chain) : chain :=
  match filter (q_has_sq q) (rev (all_prefixes preferred)) with p :: _ => p | [] => firstn 1 preferred end.

(* ---------- converge state ---------- *)
Record cvalue := mkCV { cv_chain : chain; cv_just : just; cv_rank : option Z (* None = +Inf (self value) *) }.
Record cstate := mkC { cs_senders : list Z; cs_values : list cvalue }.
Definition c_empty : cstate := mkC [] [].
Fixpoint cv_find (l : list cvalue) (k : chain) : option cvalue :=
  match l with [] => None | v :: r => if chain_eqb (cv_chain v) k then Some v else cv_find r k end.
Fixpoint cv_set (l : list cvalue) (v : cvalue) : list cvalue :=
  match l with [] => [v] | x :: r => if chain_eqb (cv_chain x) (cv_chain v) then v :: r else x :: cv_set r v end.
Definition c_set_self (s : cstate) (v : chain) (j : just) : cstate :=
  match cv_find (cs_values s) v with Some _ => s | None => mkC (cs_senders s) (cs_values s ++ [mkCV v j None]) end.
Definition rank_lt (a : Z) (b : option Z) : bool := match b with None => true | Some y => a <? y end.
(* Receive: error on bottom value or nil justification *)
Definition c_receive (s : cstate) (sender : Z) (v : chain) (rank : Z) (j : option just) : option cstate :=
  match v, j with
  | [], _ => None
  | _, None => None
  | _, Some jj =>
      if memZ sender (cs_senders s) then Some s else
      let s1 := mkC (cs_senders s ++ [sender]) (cs_values s) in
      match cv_find (cs_values s) v with
      | None => Some (mkC (cs_senders s1) (cs_values s ++ [mkCV v jj (Some rank)]))
      | Some old => if rank_lt rank (cv_rank old) then Some (mkC (cs_senders s1) (cv_set (cs_values s) (mkCV v (cv_just old) (Some rank)))) else Some s1
      end
  end.
(* FindBestTicketProposal: smallest rank among the values passing the filter; ties -> first *)
Definition better (best : option cvalue) (v : cvalue) : bool :=
  match best with
  | None => true
  | Some b => match cv_rank v, cv_rank b with
              | Some x, Some y => x <? y
              | Some _, None => true
              | None, _ => false
              end
  end.
Definition c_find_best (s : cstate) (f : cvalue -> bool) : option cvalue :=
  fold_left (fun best v => if better best v && f v then Some v else best) (cs_values s) None.
Definition c_get_just (s : cstate) (ph : phase) (k : chain) : option just :=
  match k with
  | [] => match filter (fun v => is_zero (j_value (cv_just v)) && phase_eqb (j_phase (cv_just v)) ph) (cs_values s) with v :: _ => Some (cv_just v) | [] => None end
  | _ => match cv_find (cs_values s) k with Some v => if phase_eqb (j_phase (cv_just v)) ph then Some (cv_just v) else None | None => None end
  end.
Definition c_has_just (s : cstate) (ph : phase) (k : chain) : bool := match c_get_just s ph k with Some _ => true | None => false end.

(* ---------- instance ---------- *)
Record rstate := mkR { r_conv : cstate; r_prep : qstate; r_comm : qstate }.
Definition r_empty : rstate := mkR c_empty q_empty q_empty.

Inductive out :=
| OBroadcast (round : Z) (ph : phase) (v : chain) (j : option just) (ticket : bool)
| ORebroadcast (round : Z) (ph : phase)
| OAlarm (t : Z).

Inductive ierr := EConvergeMsg | ENoConvergeValue | EPhase
                | PBeginConverge | PBeginCommit | PBeginDecide | PTryDecide | PNextRound | PMultiQuorum | PFindQuorum.

Record inst := mkI {
  i_input : chain; i_proposal : chain; i_value : chain; i_cands : list chain;
  i_quality : qstate; i_rounds : list (Z * rstate); i_decision : qstate;
  i_round : Z; i_phase : phase;
  i_ptimeout : Z; i_rtimeout : option Z; i_rattempts : Z;
  i_term : option just;
  i_now : Z; i_out : list out (* newest first *); i_err : option ierr;
}.

Fixpoint rget (l : list (Z * rstate)) (r : Z) : rstate :=
  match l with [] => r_empty | (k, s) :: t => if k =? r then s else rget t r end.
Fixpoint rset (l : list (Z * rstate)) (r : Z) (s : rstate) : list (Z * rstate) :=
  match l with [] => [(r, s)] | (k, x) :: t => if k =? r then (r, s) :: t else (k, x) :: rset t r s end.
Definition get_round (i : inst) (r : Z) : rstate := rget (i_rounds i) r.

(* setters *)
Definition emit (i : inst) (o : out) : inst :=
  mkI (i_input i) (i_proposal i) (i_value i) (i_cands i) (i_quality i) (i_rounds i) (i_decision i) (i_round i) (i_phase i)
      (i_ptimeout i) (i_rtimeout i) (i_rattempts i) (i_term i) (i_now i) (o :: i_out i) (i_err i).
Definition fail (i : inst) (e : ierr) : inst :=
  mkI (i_input i) (i_proposal i) (i_value i) (i_cands i) (i_quality i) (i_rounds i) (i_decision i) (i_round i) (i_phase i)
      (i_ptimeout i) (i_rtimeout i) (i_rattempts i) (i_term i) (i_now i) (i_out i) (match i_err i with Some e0 => Some e0 | None => Some e end).
Definition set_round_state (i : inst) (r : Z) (s : rstate) : inst :=
  mkI (i_input i) (i_proposal i) (i_value i) (i_cands i) (i_quality i) (rset (i_rounds i) r s) (i_decision i) (i_round i) (i_phase i)
      (i_ptimeout i) (i_rtimeout i) (i_rattempts i) (i_term i) (i_now i) (i_out i) (i_err i).
Definition set_pv (i : inst) (p v : chain) : inst :=
  mkI (i_input i) p v (i_cands i) (i_quality i) (i_rounds i) (i_decision i) (i_round i) (i_phase i)
      (i_ptimeout i) (i_rtimeout i) (i_rattempts i) (i_term i) (i_now i) (i_out i) (i_err i).
Definition set_cands (i : inst) (c : list chain) : inst :=
  mkI (i_input i) (i_proposal i) (i_value i) c (i_quality i) (i_rounds i) (i_decision i) (i_round i) (i_phase i)
      (i_ptimeout i) (i_rtimeout i) (i_rattempts i) (i_term i) (i_now i) (i_out i) (i_err i).
Definition set_quality (i : inst) (q : qstate) : inst :=
  mkI (i_input i) (i_proposal i) (i_value i) (i_cands i) q (i_rounds i) (i_decision i) (i_round i) (i_phase i)
      (i_ptimeout i) (i_rtimeout i) (i_rattempts i) (i_term i) (i_now i) (i_out i) (i_err i).
Definition set_decision (i : inst) (q : qstate) : inst :=
  mkI (i_input i) (i_proposal i) (i_value i) (i_cands i) (i_quality i) (i_rounds i) q (i_round i) (i_phase i)
      (i_ptimeout i) (i_rtimeout i) (i_rattempts i) (i_term i) (i_now i) (i_out i) (i_err i).
Definition set_progress (i : inst) (r : Z) (p : phase) : inst :=
  mkI (i_input i) (i_proposal i) (i_value i) (i_cands i) (i_quality i) (i_rounds i) (i_decision i) r p
      (i_ptimeout i) (i_rtimeout i) (i_rattempts i) (i_term i) (i_now i) (i_out i) (i_err i).
Definition set_timers (i : inst) (pt : Z) (rt : option Z) (ra : Z) : inst :=
  mkI (i_input i) (i_proposal i) (i_value i) (i_cands i) (i_quality i) (i_rounds i) (i_decision i) (i_round i) (i_phase i)
      pt rt ra (i_term i) (i_now i) (i_out i) (i_err i).
Definition set_term (i : inst) (j : just) : inst :=
  mkI (i_input i) (i_proposal i) (i_value i) (i_cands i) (i_quality i) (i_rounds i) (i_decision i) (i_round i) (i_phase i)
      (i_ptimeout i) (i_rtimeout i) (i_rattempts i) (Some j) (i_now i) (i_out i) (i_err i).
Definition set_now (i : inst) (t : Z) : inst :=
  mkI (i_input i) (i_proposal i) (i_value i) (i_cands i) (i_quality i) (i_rounds i) (i_decision i) (i_round i) (i_phase i)
      (i_ptimeout i) (i_rtimeout i) (i_rattempts i) (i_term i) t (i_out i) (i_err i).

Definition new_instance (input : chain) (now : Z) : inst :=
  mkI input input [] [firstn 1 input] q_empty [(0, r_empty)] q_empty 0 INITIAL 0 None 0 None now [] None.

Definition reset_rebroadcast (i : inst) : inst := set_timers i (i_ptimeout i) None 0.
Definition phase_timeout_elapsed (i : inst) : bool := i_ptimeout i <=? i_now i.
Definition should_rebroadcast (c : config) (i : inst) : bool := phase_timeout_elapsed i || (c_rebro_round c <? i_round i).
Definition is_candidate (i : inst) (v : chain) : bool := existsb (chain_eqb v) (i_cands i).
Definition add_candidate (i : inst) (v : chain) : inst * bool :=
  if is_candidate i v then (i, false) else (set_cands i (i_cands i ++ [v]), true).
(* addCandidatePrefixes: the chain and every prefix of it (length >= 2; the base is always a candidate), longest first *)
Definition add_candidate_prefixes (i : inst) (v : chain) : inst :=
  fold_left (fun i p => fst (add_candidate i p)) (rev (all_prefixes v)) i.

(* alarmAfterSynchronyWithMulti *)
Definition alarm_after (c : config) (i : inst) (quality : bool) : inst :=
  let d := if quality then c_quality_timeout c else nthZ (c_timeouts c) (i_round i) in
  let t := i_now i + d in
  emit (set_timers i t (i_rtimeout i) (i_rattempts i)) (OAlarm t).

Definition build_just (round : Z) (ph : phase) (v : chain) (signers : list Z) : just := mkJ round ph v signers.

(* rebroadcast *)
Definition do_rebroadcast (i : inst) : inst :=
  match i_phase i with
  | QUALITY | CONVERGE | PREPARE | COMMIT =>
      let i := emit i (ORebroadcast 0 QUALITY) in
      let i := emit (emit (emit i (ORebroadcast (i_round i) COMMIT)) (ORebroadcast (i_round i) PREPARE)) (ORebroadcast (i_round i) CONVERGE) in
      if 0 <? i_round i then emit (emit (emit i (ORebroadcast (i_round i - 1) COMMIT)) (ORebroadcast (i_round i - 1) PREPARE)) (ORebroadcast (i_round i - 1) CONVERGE) else i
  | DECIDE => emit i (ORebroadcast 0 DECIDE)
  | _ => i
  end.

(* tryRebroadcast *)
Definition try_rebroadcast (c : config) (i : inst) : inst :=
  match i_rtimeout i with
  | None =>
      if i_rattempts i =? 0 then
        let offset := if phase_eqb (i_phase i) DECIDE || (c_rebro_round c <? i_round i) then i_now i else i_ptimeout i in
        let rt := offset + nthZ (c_rebro_after c) 0 in
        let i1 := set_timers i (i_ptimeout i) (Some rt) (i_rattempts i) in
        if phase_timeout_elapsed i1 then emit i1 (OAlarm rt)
        else if rt <? i_ptimeout i1 then emit i1 (OAlarm rt)
        else reset_rebroadcast i1
      else (* attempts > 0 with a zero timeout cannot happen: attempts are only incremented together with a timeout *) i
  | Some rt =>
      if rt <=? i_now i then
        let i1 := do_rebroadcast i in
        let a := i_rattempts i1 + 1 in
        let rt' := i_now i1 + nthZ (c_rebro_after c) a in
        let i2 := set_timers i1 (i_ptimeout i1) (Some rt') a in
        if phase_timeout_elapsed i2 then emit i2 (OAlarm rt')
        else if rt' <? i_ptimeout i2 then emit i2 (OAlarm rt')
        else emit i2 (OAlarm (i_ptimeout i2))
      else i
  end.

Definition broadcast (i : inst) (round : Z) (ph : phase) (v : chain) (ticket : bool) (j : option just) : inst :=
  emit i (OBroadcast round ph v j ticket).

(* beginPrepare / beginCommit / beginDecide / beginConverge / beginNextRound / skips *)
Definition begin_prepare (c : config) (i : inst) (j : option just) : inst :=
  let i := set_progress i (i_round i) PREPARE in
  let i := reset_rebroadcast (alarm_after c i false) in
  broadcast i (i_round i) PREPARE (i_value i) false j.

Definition begin_commit (c : config) (i : inst) : inst :=
  let i := set_progress i (i_round i) COMMIT in
  let i := reset_rebroadcast (alarm_after c i false) in
  match i_value i with
  | [] => broadcast i (i_round i) COMMIT [] false None
  | v =>
      let cur := get_round i (i_round i) in
      let nxt := get_round i (i_round i + 1) in
      match q_find_sq_for c (r_prep cur) v with
      | FsqSome signers => broadcast i (i_round i) COMMIT v false (Some (build_just (i_round i) PREPARE v signers))
      | FsqPanic => fail i PFindQuorum
      | FsqNone =>
          match q_get_just (r_comm cur) PREPARE v with
          | Some j => broadcast i (i_round i) COMMIT v false (Some j)
          | None => match q_get_just (r_prep nxt) PREPARE v with
                    | Some j => broadcast i (i_round i) COMMIT v false (Some j)
                    | None => match c_get_just (r_conv nxt) PREPARE v with
                              | Some j => broadcast i (i_round i) COMMIT v false (Some j)
                              | None => fail i PBeginCommit
                              end
                    end
          end
      end
  end.

Definition begin_decide (c : config) (i : inst) (round : Z) : inst :=
  let i := reset_rebroadcast (set_progress i (i_round i) DECIDE) in
  match q_find_sq_for c (r_comm (get_round i round)) (i_value i) with
  | FsqSome signers => broadcast i 0 DECIDE (i_value i) false (Some (build_just round COMMIT (i_value i) signers))
  | _ => fail i PBeginDecide
  end.

Definition skip_to_decide (i : inst) (v : chain) (j : option just) : inst :=
  let i := set_progress i (i_round i) DECIDE in
  let i := reset_rebroadcast (set_pv i v v) in
  broadcast i 0 DECIDE v false j.

Definition begin_converge (c : config) (i : inst) (j : just) : inst :=
  if negb (j_round j =? i_round i - 1) then fail i PBeginConverge else
  let i := set_progress i (i_round i) CONVERGE in
  let i := reset_rebroadcast (alarm_after c i false) in
  let rs := get_round i (i_round i) in
  let i := set_round_state i (i_round i) (mkR (c_set_self (r_conv rs) (i_proposal i) j) (r_prep rs) (r_comm rs)) in
  broadcast i (i_round i) CONVERGE (i_proposal i) true (Some j).

Definition begin_next_round (c : config) (i : inst) : inst :=
  let i := set_progress i (i_round i + 1) (i_phase i) in
  let cur := get_round i (i_round i) in
  let prev := get_round i (i_round i - 1) in
  match q_find_sq_for c (r_comm prev) [] with
  | FsqSome signers => begin_converge c i (build_just (i_round i - 1) COMMIT [] signers)
  | FsqPanic => fail i PFindQuorum
  | FsqNone =>
      match q_get_just (r_prep cur) COMMIT [] with
      | Some j => begin_converge c i j
      | None => match c_get_just (r_conv cur) COMMIT [] with
                | Some j => begin_converge c i j
                | None => match filter (fun e => chain_eqb (fst e) (i_proposal i)) (q_just (r_comm prev)) with
                          | e :: _ => begin_converge c i (snd e)
                          | [] => fail i PNextRound
                          end
                end
      end
  end.

Definition skip_to_round (c : config) (i : inst) (round : Z) (v : chain) (j : just) : inst :=
  let i := set_progress i round (i_phase i) in
  let i := if phase_eqb (i_phase i) QUALITY then
             let p := q_longest_prefix (i_quality i) (i_input i) in
             let i0 := add_candidate_prefixes (set_pv i p (i_value i)) p in set_pv i0 p p
           else i in
  let i := if phase_eqb (j_phase j) PREPARE then let i1 := fst (add_candidate i v) in set_pv i1 v (i_value i1) else i in
  begin_converge c i j.

Definition terminate (i : inst) (j : just) : inst :=
  let i := set_progress i (i_round i) TERMINATED in
  reset_rebroadcast (set_term (set_pv i (i_proposal i) (j_value j)) j).

(* try* *)
Definition try_quality (c : config) (i : inst) : inst :=
  if q_has_sq (i_quality i) (i_proposal i) || phase_timeout_elapsed i then
    let p := q_longest_prefix (i_quality i) (i_input i) in
    let i := add_candidate_prefixes (set_pv i p (i_value i)) p in
    begin_prepare c (set_pv i p p) None
  else i.

Definition update_candidates_from_quality (i : inst) : inst :=
  add_candidate_prefixes i (q_longest_prefix (i_quality i) (i_input i)).

Definition try_converge (c : config) (i : inst) : inst :=
  if negb (phase_timeout_elapsed i) then (if should_rebroadcast c i then try_rebroadcast c i else i) else
  let commit_prev := r_comm (get_round i (i_round i - 1)) in
  let valid := fun cv => is_candidate i (cv_chain cv) ||
                         (phase_eqb (j_phase (cv_just cv)) PREPARE && q_could_reach c commit_prev (cv_chain cv) true) in
  match c_find_best (r_conv (get_round i (i_round i))) valid with
  | None => fail i ENoConvergeValue
  | Some w =>
      let i := fst (add_candidate i (cv_chain w)) in
      begin_prepare c (set_pv i (cv_chain w) (cv_chain w)) (Some (cv_just w))
  end.

Definition try_prepare (c : config) (i : inst) : inst :=
  let cur := get_round i (i_round i) in
  let nxt := get_round i (i_round i + 1) in
  let k := i_proposal i in
  let found := q_has_sq (r_prep cur) k in
  let not_possible := negb (q_could_reach c (r_prep cur) k false) in
  let complete := phase_timeout_elapsed i && q_from_strong c (r_prep cur) in
  let foundj := q_has_just (r_comm cur) PREPARE k || q_has_just (r_prep nxt) PREPARE k || c_has_just (r_conv nxt) PREPARE k in
  let i1 := if found || foundj then set_pv i (i_proposal i) (i_proposal i)
            else if not_possible || complete then set_pv i (i_proposal i) [] else i in
  if found || foundj || not_possible || complete then begin_commit c i1
  else if should_rebroadcast c i1 then try_rebroadcast c i1 else i1.

(* tryCommit: `sway` is the value the implementation adopted when several non-bottom COMMIT values are present
   (Go map iteration order): it must be one of them; with at most one candidate it is ignored *)
Definition try_commit (c : config) (i : inst) (round : Z) (sway : option chain) : inst :=
  let comm := r_comm (get_round i round) in
  let nxt := get_round i (round + 1) in
  let complete := phase_timeout_elapsed i && q_from_strong c comm in
  let bottomj := q_has_just (r_prep nxt) COMMIT [] || c_has_just (r_conv nxt) COMMIT [] in
  match q_find_sq_value comm with
  | FsvPanic => fail i PMultiQuorum
  | fsv =>
      match fsv with
      | FsvSome (x :: v) => begin_decide c (set_pv i (i_proposal i) (x :: v)) round
      | _ =>
          if negb (i_round i =? round) || negb (phase_eqb (i_phase i) COMMIT) then i else
          if (match fsv with FsvSome _ => true | _ => false end) || bottomj then begin_next_round c i else
          if complete then
            let nz := filter (fun v => negb (is_zero v)) (q_all_values comm) in
            let pick := match sway with
                        | Some s => if existsb (chain_eqb s) nz then Some s else hd_error nz
                        | None => hd_error nz end in
            let i1 := match pick with
                      | Some v => let i0 := fst (add_candidate i v) in
                                  if chain_eqb v (i_proposal i0) then i0 else set_pv i0 v (i_value i0)
                      | None => i end in
            begin_next_round c i1
          else if should_rebroadcast c i then try_rebroadcast c i else i
      end
  end.

Definition try_decide (c : config) (i : inst) : inst :=
  match q_find_sq_value (i_decision i) with
  | FsvPanic => fail i PMultiQuorum
  | FsvSome v =>
      match q_find_sq_for c (i_decision i) v with
      | FsqSome signers => terminate i (build_just 0 DECIDE v signers)
      | _ => fail i PTryDecide
      end
  | FsvNone => try_rebroadcast c i
  end.

Definition try_current_phase (c : config) (i : inst) (sway : option chain) : inst :=
  match i_phase i with
  | QUALITY => try_quality c i
  | CONVERGE => try_converge c i
  | PREPARE => try_prepare c i
  | COMMIT => try_commit c i (i_round i) sway
  | DECIDE => try_decide c i
  | TERMINATED => i
  | INITIAL => fail i EPhase
  end.

(* Start = beginQuality *)
Definition begin_quality (c : config) (i : inst) : inst :=
  if negb (phase_eqb (i_phase i) INITIAL) then fail i EPhase else
  let i := set_progress i (i_round i) QUALITY in
  let i := reset_rebroadcast (alarm_after c i true) in
  broadcast i (i_round i) QUALITY (i_proposal i) false None.

Definition is_spammable (m : msg) : bool := (match m_just m with None => true | Some _ => false end) && (0 <? m_round m).

(* shouldSkipToRound / postReceive for one round *)
Definition post_receive (c : config) (i : inst) (round : Z) : inst :=
  if (round <=? i_round i) || phase_eqb (i_phase i) DECIDE then i else
  let st := get_round i round in
  if negb (q_from_weak c (r_prep st)) then i else
  match c_find_best (r_conv st) (fun _ => true) with
  | Some w => skip_to_round c i round (cv_chain w) (cv_just w)
  | None => i
  end.

(* receiveOne: returns the new state and whether the state may have changed *)
Definition receive_one (c : config) (i : inst) (m : msg) (sway : option chain) : inst * bool :=
  if phase_eqb (i_phase i) TERMINATED then (i, false) else
  let prior := m_round m <? i_round i in
  if prior && (phase_eqb (m_phase m) CONVERGE || phase_eqb (m_phase m) PREPARE) then (i, false) else
  if (i_round i + c_lookahead c <? m_round m) && is_spammable m then (i, false) else
  let rs := get_round i (m_round m) in
  match m_phase m with
  | QUALITY =>
      let i1 := set_quality i (q_receive_prefixes c (i_quality i) (m_sender m) (m_value m)) in
      (* getRound has materialised the message's round *)
      let i1 := set_round_state i1 (m_round m) rs in
      if negb (phase_eqb (i_phase i1) QUALITY) then (update_candidates_from_quality i1, true)
      else (try_current_phase c i1 sway, true)
  | CONVERGE =>
      match c_receive (r_conv rs) (m_sender m) (m_value m) (m_rank m) (m_just m) with
      | None => (fail i EConvergeMsg, false)
      | Some cs => (try_current_phase c (set_round_state i (m_round m) (mkR cs (r_prep rs) (r_comm rs))) sway, true)
      end
  | PREPARE =>
      let q := q_receive c (r_prep rs) (m_sender m) (m_value m) in
      let q := match m_just m with Some j => q_receive_just q (m_value m) j | None => q end in
      (try_current_phase c (set_round_state i (m_round m) (mkR (r_conv rs) q (r_comm rs))) sway, true)
  | COMMIT =>
      let q := q_receive c (r_comm rs) (m_sender m) (m_value m) in
      let q := match m_value m, m_just m with
               | _ :: _, Some j => q_receive_just q (m_value m) j
               | _, _ => q end in
      let i1 := set_round_state i (m_round m) (mkR (r_conv rs) (r_prep rs) q) in
      if negb (phase_eqb (i_phase i1) DECIDE) then
        let i2 := try_commit c i1 (m_round m) sway in
        let again := (match i_err i2 with None => true | Some _ => false end) && phase_eqb (i_phase i2) PREPARE &&
                     (i_round i2 =? m_round m) && negb (is_zero (m_value m)) in
        if again then (try_current_phase c i2 sway, true) else (i2, true)
      else (try_current_phase c i1 sway, true)
  | DECIDE =>
      let i1 := set_decision i (q_receive c (i_decision i) (m_sender m) (m_value m)) in
      let i1 := set_round_state i1 (m_round m) rs in
      let i2 := if negb (phase_eqb (i_phase i1) DECIDE) then skip_to_decide i1 (m_value m) (m_just m) else i1 in
      (try_current_phase c i2 sway, true)
  | _ => (fail i EPhase, false)
  end.

(* ---------- events ---------- *)
Inductive event :=
| EvStart (now : Z)
| EvDeliver (now : Z) (m : msg) (sway : option chain)
| EvAlarm (now : Z) (sway : option chain).

Definition step (c : config) (i : inst) (e : event) : inst :=
  match e with
  | EvStart now => begin_quality c (set_now i now)
  | EvDeliver now m sway =>
      let i := set_now i now in
      let '(i1, changed) := receive_one c i m sway in
      if changed && (match i_err i1 with None => true | Some _ => false end) then post_receive c i1 (m_round m) else i1
  | EvAlarm now sway => try_current_phase c (set_now i now) sway
  end.

Definition clear_out (i : inst) : inst :=
  mkI (i_input i) (i_proposal i) (i_value i) (i_cands i) (i_quality i) (i_rounds i) (i_decision i) (i_round i) (i_phase i)
      (i_ptimeout i) (i_rtimeout i) (i_rattempts i) (i_term i) (i_now i) [] (i_err i).
