(* Progress on the happy path (C02 second sentence: "that chain itself is decided"; the synchronous corner of C06).
   HappyNet.v shows that on a happy schedule nobody ever votes for anything but v.  Here: what ONE step does to a happy
   instance -- which tallies grow, and when the participant moves on -- in enough detail to conclude, over the network
   (second half of this file), that once every vote cast has been delivered to every honest member, every honest member
   HAS decided v.  No timer is involved: the participant re-examines the tally of its current step after every delivery. *)
From Coq Require Import ZArith List Bool Lia.
From F3 Require Import QuorumGen QuorumProofs Instance InstanceOrder InstanceDecide InstanceNoPanic HappyInst HappyStep Refine RefineNode RefineNet HappyNet.
Import ListNotations.
Open Scope Z_scope.

Section Happy.
Variable c : config.
Variable v : chain.
Hypothesis Hv : (2 <= length v)%nat.
Hypothesis Hcw : committee_wf c.
Hypothesis Hrr : 0 <= c_rebro_round c.

Local Notation uni := (uni c v).
Local Notation uniQ := (uniQ c v).
Local Notation shape := (shape c v).
Local Notation strong p := (isStrongQuorum p (c_total c)).

Definition sndrs (i : inst) (p : phase) : list Z :=
  match p with
  | QUALITY => q_senders (i_quality i)
  | PREPARE => q_senders (r_prep (get_round i 0))
  | COMMIT => q_senders (r_comm (get_round i 0))
  | DECIDE => q_senders (i_decision i)
  | _ => []
  end.
Definition ext (i i' : inst) : Prop :=
  i_quality i' = i_quality i /\ i_rounds i' = i_rounds i /\ i_decision i' = i_decision i /\ incl (i_out i) (i_out i').
Lemma ext_refl i : ext i i.
Proof. repeat split; apply incl_refl. Qed.
Lemma ext_sndrs i i' : ext i i' -> forall p, sndrs i' p = sndrs i p.
Proof. intros (A & B & C & _) p. unfold sndrs, get_round. rewrite A, B, C. reflexivity. Qed.

Definition bc (i : inst) (p : phase) : Prop := exists j t, In (OBroadcast 0 p v j t) (i_out i).
Definition noq (i : inst) : Prop :=
  match i_phase i with
  | QUALITY | PREPARE | COMMIT | DECIDE => strong (sum_power c (sndrs i (i_phase i))) = false
  | _ => True
  end.


Lemma uniQ_sp q : uniQ q -> q_spower q = sum_power c (q_senders q).
Proof. intros (_ & H & _). exact H. Qed.

Lemma ext_try_rebroadcast i : ext i (try_rebroadcast c i) /\ i_phase (try_rebroadcast c i) = i_phase i /\ i_term (try_rebroadcast c i) = i_term i.
Proof.
  pose proof (hview_try_rebroadcast c i) as V. unfold hview in V. injection V as _ _ _ E4 E5 E6 _ E8 _ E10 _ _.
  destruct (out_try_rebroadcast c i) as (al & Eo & _). repeat split; try assumption. rewrite Eo. apply incl_appr, incl_refl.
Qed.

Lemma sndrs_tally i p : sndrs i p = q_senders (tally i p).
Proof. destruct p; reflexivity. Qed.
Lemma noq_tally i : shape i -> strong (q_spower (tally i (i_phase i))) = false -> noq i.
Proof.
  intros S Q. unfold noq. rewrite sndrs_tally, <- (uniQ_sp _ (proj1 (shape_tally c v i (i_phase i) S))), Q. destruct (i_phase i); exact I || reflexivity.
Qed.
Lemma noq_ext i i' : ext i i' -> i_phase i' = i_phase i -> noq i -> noq i'.
Proof. intros X E. unfold noq. rewrite E, (ext_sndrs _ _ X). exact (fun H => H). Qed.

Lemma hmove_ext p i i' : hmove c v p i i' -> ext i i'.
Proof. intros [(_ & _ & E3 & E4 & E5 & _) _ _ _ (al & Eo & _) _]. repeat split; try assumption. rewrite Eo. apply incl_appr, incl_refl. Qed.
Lemma hmove_on p i i' : hmove c v p i i' -> p <> TERMINATED -> ext i i' /\ i_phase i' = p /\ bc i' p /\ i_term i' = i_term i.
Proof.
  intros M Hn. split; [exact (hmove_ext _ _ _ M)|]. destruct M as [_ _ Ph _ (al & Eo & _ & Hb) Tm]. split; [exact Ph|]. split.
  - destruct (Hb Hn) as (j & t & Hin). exists j, t. rewrite Eo. apply in_or_app. left. exact Hin.
  - destruct (phase_eqb p TERMINATED) eqn:E; [apply phase_eqb_true in E; contradiction|exact Tm].
Qed.
Lemma hmove_done i i' : hmove c v TERMINATED i i' -> ext i i' /\ i_phase i' = TERMINATED /\ i_term i' <> None.
Proof. intros M. split; [exact (hmove_ext _ _ _ M)|]. destruct M as [_ _ Ph _ _ (sg & Tm)]. split; [exact Ph|]. rewrite Tm. discriminate. Qed.

Lemma tq_effect i : shape i -> i_phase i = QUALITY -> timely i ->
  (try_quality c i = i /\ strong (q_spower (i_quality i)) = false) \/
  (ext i (try_quality c i) /\ i_phase (try_quality c i) = PREPARE /\ bc (try_quality c i) PREPARE /\ i_term (try_quality c i) = i_term i).
Proof.
  intros S _ Ht. rewrite (try_quality_happy c v Hv Hcw i S Ht). cbn [tally].
  destruct (strong _); [right|left; split; reflexivity]. destruct (acp_nf (set_pv i v (i_value i)) v) as (cs & _ & _ & -> & _).
  apply hmove_on; [apply hmove_begin_prepare; exact (sh_round c v i S)|discriminate].
Qed.

Lemma tp_effect i : shape i -> timely i -> i_err i = None -> i_err (try_prepare c i) = None ->
  (try_prepare c i = i /\ strong (q_spower (r_prep (get_round i 0))) = false) \/
  (ext i (try_prepare c i) /\ i_phase (try_prepare c i) = COMMIT /\ bc (try_prepare c i) COMMIT /\ i_term (try_prepare c i) = i_term i).
Proof.
  intros S Ht _ He. rewrite (try_prepare_happy c v Hv Hcw Hrr i S Ht) in *. cbn [tally] in *.
  destruct (strong _ || _) eqn:Eb; [right|left; split; [reflexivity|exact (proj1 (orb_false_elim _ _ Eb))]].
  apply hmove_on; [apply (hmove_begin_commit c v Hv i (sh_round c v i S) He)|discriminate].
Qed.

Lemma tc_effect i sway : shape i -> timely i -> i_err i = None -> i_err (try_commit c i 0 sway) = None ->
  (try_commit c i 0 sway = i /\ strong (q_spower (r_comm (get_round i 0))) = false) \/
  (ext i (try_commit c i 0 sway) /\ i_phase (try_commit c i 0 sway) = DECIDE /\ bc (try_commit c i 0 sway) DECIDE /\
   i_term (try_commit c i 0 sway) = i_term i).
Proof.
  intros S Ht _ He. rewrite (try_commit_happy c v Hv Hcw Hrr i sway S (or_introl Ht)) in *. cbn [tally] in *.
  destruct (strong _); [right|left; split; reflexivity].
  apply hmove_on; [apply (hmove_begin_decide c v i He)|discriminate].
Qed.

Lemma td_effect i : shape i -> i_err (try_decide c i) = None ->
  (ext i (try_decide c i) /\ i_phase (try_decide c i) = i_phase i /\ i_term (try_decide c i) = i_term i /\
   strong (q_spower (i_decision i)) = false) \/
  (ext i (try_decide c i) /\ i_phase (try_decide c i) = TERMINATED /\ i_term (try_decide c i) <> None).
Proof using Hv Hcw.
  intros S He. rewrite (try_decide_happy c v Hcw i S) in *. cbn [tally] in *.
  destruct (strong _); [right|left; destruct (ext_try_rebroadcast i) as (A & B & C); exact (conj A (conj B (conj C eq_refl)))].
  destruct (q_find_sq_for c (i_decision i) v) as [| |sg]; try destruct (err_fail_some _ _ He).
  exact (hmove_done _ _ (hmove_terminate c v i sg (sh_prop c v i S))).
Qed.

(* what re-examining the current step does: nothing (and then its tally holds no quorum), or exactly one move forward *)
Definition moved (i i' : inst) : Prop :=
  (i_phase i' = i_phase i /\ i_term i' = i_term i /\ noq i') \/
  (i_phase i = QUALITY /\ i_phase i' = PREPARE /\ bc i' PREPARE /\ i_term i' = i_term i) \/
  (i_phase i = PREPARE /\ i_phase i' = COMMIT /\ bc i' COMMIT /\ i_term i' = i_term i) \/
  (i_phase i = COMMIT /\ i_phase i' = DECIDE /\ bc i' DECIDE /\ i_term i' = i_term i) \/
  (i_phase i = DECIDE /\ i_phase i' = TERMINATED /\ i_term i' <> None).

Lemma tcp_effect i sway : shape i -> okt i -> i_err i = None -> i_err (try_current_phase c i sway) = None ->
  ext i (try_current_phase c i sway) /\ moved i (try_current_phase c i sway).
Proof.
  intros S Hk _ He. destruct (try_current_phase_happy c v Hv Hcw Hrr i sway S Hk He) as [([-> | ->] & Q)|(Nt & M)].
  - split; [apply ext_refl|]. left. split; [reflexivity|]. split; [reflexivity|exact (noq_tally i S Q)].
  - destruct (ext_try_rebroadcast i) as (A & B & C). split; [exact A|]. left. split; [exact B|]. split; [exact C|].
    exact (noq_ext _ _ A B (noq_tally i S Q)).
  - split; [exact (hmove_ext _ _ _ M)|]. right.
    destruct (sh_phase c v i S) as [Ep|[Ep|[Ep|[Ep|Ep]]]]; rewrite Ep in *; cbn [next] in M; try destruct (Nt eq_refl).
    + left. split; [reflexivity|]. exact (proj2 (hmove_on _ _ _ M ltac:(discriminate))).
    + right. left. split; [reflexivity|]. exact (proj2 (hmove_on _ _ _ M ltac:(discriminate))).
    + right. right. left. split; [reflexivity|]. exact (proj2 (hmove_on _ _ _ M ltac:(discriminate))).
    + right. right. right. split; [reflexivity|]. exact (proj2 (hmove_done _ _ M)).
Qed.

Definition addz (s : Z) (l : list Z) : list Z := if memZ s l then l else l ++ [s].
Lemma q_receive_senders q s x : q_senders (q_receive c q s x) = addz s (q_senders q).
Proof. unfold q_receive, addz. destruct (memZ s (q_senders q)); reflexivity. Qed.
Lemma q_receive_just_senders q x j : q_senders (q_receive_just q x j) = q_senders q.
Proof. unfold q_receive_just. destruct (existsb _ _); reflexivity. Qed.
Lemma fold_inner_senders s pw l : forall q, q_senders (fold_left (fun q p => q_receive_inner c q s p pw) l q) = q_senders q.
Proof. induction l as [|p l IH]; intros q; cbn [fold_left]; [reflexivity|]. rewrite IH. reflexivity. Qed.
Lemma q_receive_prefixes_senders q s x : q_senders (q_receive_prefixes c q s x) = addz s (q_senders q).
Proof. unfold q_receive_prefixes, addz. destruct (memZ s (q_senders q)); [reflexivity|]. rewrite fold_inner_senders. reflexivity. Qed.
Lemma addz_In s l x : In x (addz s l) <-> x = s \/ In x l.
Proof.
  unfold addz. destruct (memZ s l) eqn:E.
  - apply (memZ_In s l) in E. split; [intros H; right; exact H|intros [->|H]; assumption].
  - rewrite in_app_iff. cbn. split; [intros [H|[H|[]]]; [right; exact H|left; symmetry; exact H]|intros [->|H]; [right; left; reflexivity|left; exact H]].
Qed.

Definition recorded (i : inst) (m : msg) (i' : inst) : Prop :=
  forall p, sndrs i' p = if phase_eqb p (m_phase m) then addz (m_sender m) (sndrs i p) else sndrs i p.
Definition stepped (i : inst) (m : msg) (i' : inst) : Prop :=
  ((i_phase i' = i_phase i /\ i_term i' = i_term i /\ (m_phase m = i_phase i -> noq i')) \/
   (i_phase i = QUALITY /\ i_phase i' = PREPARE /\ bc i' PREPARE /\ i_term i' = i_term i) \/
   (i_phase i = PREPARE /\ i_phase i' = COMMIT /\ bc i' COMMIT /\ i_term i' = i_term i) \/
   (phase_code (i_phase i) < 5 /\ i_phase i' = DECIDE /\ bc i' DECIDE /\ i_term i' = i_term i) \/
   (phase_code (i_phase i) < 5 /\ i_phase i' = TERMINATED /\ bc i' DECIDE /\ i_term i' <> None) \/
   (i_phase i = DECIDE /\ i_phase i' = TERMINATED /\ i_term i' <> None)) /\
  (m_phase m = DECIDE -> i_phase i' = DECIDE \/ i_phase i' = TERMINATED).

Lemma moved_stepped i m i1 i' : i_phase i1 = i_phase i -> i_term i1 = i_term i -> moved i1 i' ->
  (m_phase m = DECIDE -> i_phase i' = DECIDE \/ i_phase i' = TERMINATED) -> stepped i m i'.
Proof.
  intros Ep Et M HD. split; [|exact HD]. unfold moved in M. rewrite Ep, Et in M.
  destruct M as [(A & B & C)|[(A & B & C & D)|[(A & B & C & D)|[(A & B & C & D)|(A & B & C)]]]].
  - left. repeat split; try assumption. intros _. exact C.
  - right. left. repeat split; assumption.
  - right. right. left. repeat split; assumption.
  - right. right. right. left. repeat split; try assumption. rewrite A. cbn. lia.
  - right. right. right. right. right. repeat split; assumption.
Qed.

Lemma vphase_lt5 p : vphase p -> p <> DECIDE -> p <> TERMINATED -> phase_code p < 5.
Proof. intros [-> | [-> | [-> | [-> | ->]]]] H1 H2; cbn; try lia; congruence. Qed.

Lemma bc_incl i i' p : incl (i_out i) (i_out i') -> bc i p -> bc i' p.
Proof. intros Hi (j & t & H). exists j, t. apply Hi. exact H. Qed.

Lemma recorded_record i m : shape i -> vmsg v m -> recorded i m (record c v i m).
Proof.
  intros S (_ & _ & Hp) p. destruct (sh_rounds c v i S) as (prep & comm & Er & _). unfold sndrs, record, get_round.
  destruct Hp as [Hp|[Hp|[Hp|Hp]]]; rewrite Hp; proj; rewrite Er; cbn [rset rget Z.eqb r_prep r_comm r_conv];
    destruct p; cbn [phase_eqb phase_code Z.eqb]; try reflexivity.
  - apply q_receive_prefixes_senders.
  - destruct (m_just m); [rewrite q_receive_just_senders|]; apply q_receive_senders.
  - destruct (m_just m); [rewrite q_receive_just_senders|]; apply q_receive_senders.
  - apply q_receive_senders.
Qed.

Lemma examined i m i1 i' : recorded i m i1 -> i_phase i1 = i_phase i -> i_term i1 = i_term i -> i_out i1 = i_out i -> m_phase m <> DECIDE ->
  ext i1 i' -> moved i1 i' -> recorded i m i' /\ incl (i_out i) (i_out i') /\ stepped i m i'.
Proof.
  intros R Ep Et Eo Hd X M. split; [intros p; rewrite (ext_sndrs _ _ X); apply R|]. split; [rewrite <- Eo; exact (proj2 (proj2 (proj2 X)))|].
  apply (moved_stepped i m i1); try assumption. intros H. contradiction.
Qed.

Theorem ro_effect i m sway : shape i -> okt i -> vmsg v m -> i_err i = None ->
  i_err (fst (receive_one c i m sway)) = None ->
  (i_phase i = TERMINATED /\ fst (receive_one c i m sway) = i) \/
  (i_phase i <> TERMINATED /\ recorded i m (fst (receive_one c i m sway)) /\
   incl (i_out i) (i_out (fst (receive_one c i m sway))) /\ stepped i m (fst (receive_one c i m sway))).
Proof.
  intros S Hk Hm He0 He. destruct (phase_eqb (i_phase i) TERMINATED) eqn:Et.
  { left. apply phase_eqb_true in Et. rewrite (receive_one_terminated c i m sway Et). split; [exact Et|reflexivity]. }
  right. apply phase_eqb_false in Et. split; [exact Et|].
  rewrite (receive_one_happy c v Hv i m sway Hm (sh_round c v i S) Et) in *. cbv zeta in *.
  pose proof (shape_record c v Hv i m S) as S1. pose proof (okt_record c v i m Hk) as K1. pose proof (recorded_record i m S Hm) as R1.
  destruct (record_view c v i m) as (_ & _ & P1 & E1 & O1 & T1). rewrite He0 in E1.
  set (i1 := record c v i m) in *.
  assert (Ex : forall i', m_phase m <> DECIDE -> i' = try_current_phase c i1 sway -> i_err i' = None ->
            recorded i m i' /\ incl (i_out i) (i_out i') /\ stepped i m i').
  { intros i' Hd -> He'. destruct (tcp_effect i1 sway S1 K1 E1 He') as (X & M). exact (examined i m i1 _ R1 P1 T1 O1 Hd X M). }
  destruct Hm as (_ & _ & [Hp|[Hp|[Hp|Hp]]]); rewrite Hp in He |- *.
  - destruct (phase_eqb (i_phase i) QUALITY) eqn:Eq; [apply Ex; [rewrite Hp; discriminate|reflexivity|exact He]|].
    unfold update_candidates_from_quality. destruct (acp_nf i1 (q_longest_prefix (i_quality i1) (i_input i1))) as (cs & _ & _ & -> & _).
    split; [exact R1|]. split; [proj; rewrite O1; apply incl_refl|]. split; [|intros H; congruence].
    left. split; [exact P1|]. split; [exact T1|]. intros H. apply phase_eqb_false in Eq. congruence.
  - apply Ex; [rewrite Hp; discriminate|reflexivity|exact He].
  - destruct (phase_eqb (i_phase i) DECIDE) eqn:Ed; [apply Ex; [rewrite Hp; discriminate|reflexivity|exact He]|].
    apply phase_eqb_false in Ed. set (i2 := try_commit c i1 0 sway) in *.
    assert (E2 : i_err i2 = None).
    { destruct (i_err i2) eqn:E; [|reflexivity]. cbn [andb] in He. rewrite E in He. discriminate He. }
    destruct (try_commit_record c v Hv Hcw Hrr i m sway S Hk Ed Et E2) as [(E & Q)|M].
    + fold i1 in E, Q. fold i2 in E. rewrite E in *. destruct (_ && _ && _); [apply Ex; [rewrite Hp; discriminate|reflexivity|exact He]|].
      split; [exact R1|]. split; [rewrite O1; apply incl_refl|]. split; [|intros H; congruence].
      left. split; [exact P1|]. split; [exact T1|]. intros Hc. apply (noq_tally i1 S1). rewrite P1, <- Hc, Hp. exact Q.
    + fold i1 in M. fold i2 in M. destruct (hmove_on _ _ _ M ltac:(discriminate)) as (X & B & C & D).
      replace (phase_eqb (i_phase i2) PREPARE) with false by (rewrite B; reflexivity). rewrite andb_false_r. cbn [andb].
      split; [intros p; rewrite (ext_sndrs _ _ X); apply R1|]. split; [rewrite <- O1; exact (proj2 (proj2 (proj2 X)))|].
      split; [|intros H; congruence]. right. right. right. left.
      split; [exact (vphase_lt5 _ (sh_phase c v i S) Ed Et)|]. split; [exact B|]. split; [exact C|congruence].
  - set (i2 := if phase_eqb (i_phase i) DECIDE then i1 else skip_to_decide i1 v (m_just m)) in *.
    (* i2 is in DECIDE: it was there already, or has just skipped there, broadcasting its DECIDE *)
    assert (X12 : hview i2 = hview i1 /\ i_out i2 = i_out i1 /\ i_phase i = DECIDE \/ i_phase i <> DECIDE /\ hmove c v DECIDE i1 i2).
    { unfold i2. destruct (phase_eqb (i_phase i) DECIDE) eqn:Ed; [left; apply phase_eqb_true in Ed; auto|right].
      apply phase_eqb_false in Ed. split; [exact Ed|apply hmove_skip_to_decide]. }
    assert (F2 : shape i2 /\ i_phase i2 = DECIDE /\ ext i1 i2 /\ i_term i2 = i_term i /\ i_err i2 = None /\ (i_phase i <> DECIDE -> bc i2 DECIDE)).
    { destruct X12 as [(V & Eo & Ed)|(Ed & M)].
      - split; [apply (shape_hview c v i1); [exact V|rewrite Eo; exact (sh_out c v _ S1)|exact S1]|].
        unfold hview in V. injection V as _ _ _ V4 V5 V6 _ V8 _ V10 _ V12. repeat split; congruence.
      - destruct (hmove_on _ _ _ M ltac:(discriminate)) as (X & B & C & D).
        split; [exact (shape_hmove c v DECIDE _ _ (vphase_next COMMIT) S1 M)|]. repeat split; try apply X; try congruence.
        unfold i2. destruct (phase_eqb (i_phase i) DECIDE); exact E1. }
    destruct F2 as (S2 & P2 & X2 & T2 & E2 & B2).
    destruct (tcp_effect i2 sway S2 (or_intror (or_introl P2)) E2 He) as (X & M).
    split; [intros p; rewrite (ext_sndrs _ _ X), (ext_sndrs _ _ X2); apply R1|].
    split; [rewrite <- O1; eapply incl_tran; [exact (proj2 (proj2 (proj2 X2)))|exact (proj2 (proj2 (proj2 X)))]|].
    unfold moved in M. rewrite P2, T2 in M.
    destruct M as [(A & B & C)|[(A & _)|[(A & _)|[(A & _)|(_ & B & C)]]]]; try discriminate A.
    + split; [|intros _; left; exact A]. destruct (phase_eqb (i_phase i) DECIDE) eqn:Ed.
      * apply phase_eqb_true in Ed. left. split; [congruence|]. split; [exact B|intros _; exact C].
      * apply phase_eqb_false in Ed. right. right. right. left. split; [exact (vphase_lt5 _ (sh_phase c v i S) Ed Et)|]. split; [exact A|].
        split; [exact (bc_incl i2 _ _ (proj2 (proj2 (proj2 X))) (B2 Ed))|exact B].
    + split; [|intros _; right; exact B]. destruct (phase_eqb (i_phase i) DECIDE) eqn:Ed.
      * apply phase_eqb_true in Ed. right. right. right. right. right. repeat split; assumption.
      * apply phase_eqb_false in Ed. right. right. right. right. left. split; [exact (vphase_lt5 _ (sh_phase c v i S) Ed Et)|]. split; [exact B|].
        split; [exact (bc_incl i2 _ _ (proj2 (proj2 (proj2 X))) (B2 Ed))|exact C].
Qed.

Theorem step_effect i now m sway : shape i -> okt (set_now i now) -> vmsg v m -> i_err i = None ->
  i_err (step c i (EvDeliver now m sway)) = None ->
  let i' := step c i (EvDeliver now m sway) in
  (i_phase i = TERMINATED /\ (forall p, sndrs i' p = sndrs i p) /\ i_phase i' = TERMINATED /\ i_term i' = i_term i) \/
  (i_phase i <> TERMINATED /\ recorded i m i' /\ incl (i_out i) (i_out i') /\ stepped i m i').
Proof.
  intros S Hk Hm He0 He. cbv zeta. destruct (step_deliver_happy c v Hv Hcw Hrr i now m sway S Hk Hm He) as (-> & E1).
  destruct (ro_effect (set_now i now) m sway (shape_set_now c v i now S) Hk Hm He0 E1) as [(A & B)|Q]; [left|right; exact Q].
  rewrite B. split; [exact A|]. split; [intros p; reflexivity|]. split; [exact A|reflexivity].
Qed.
End Happy.

Section Net.
Variable c : config.
Variable honest : nat -> bool.
Variable input : nat -> chain.
Variable v : chain.
Hypothesis Hwf : committee_wf c.
Hypothesis Hscaled : c_total c <= 65535.
Hypothesis Hrr : 0 <= c_rebro_round c.
Hypothesis Hv : (2 <= length v)%nat.
Hypothesis Hunanimous : forall k, honest k = true -> input k = v.
Variable hs : list Z.
Hypothesis Hhs : forall k, member c honest k <-> In k hs.
Hypothesis Hhnd : NoDup hs.
Hypothesis Hhstrong : isStrongQuorum (sum_power c hs) (c_total c) = true.

Local Notation NI := (NI c honest input).
Local Notation HN := (HN c honest v).
Local Notation member := (member c honest).
Local Notation shape := (shape c v).
Local Notation strong p := (isStrongQuorum p (c_total c)).

Definition four (p : phase) : Prop := p = QUALITY \/ p = PREPARE \/ p = COMMIT \/ p = DECIDE.
Definition late (i : inst) : Prop := i_phase i = DECIDE \/ i_phase i = TERMINATED.

(* what a started honest member's state says about the global vote set *)
Record HLk (E : list Spec.vote) (k : Z) (i : inst) : Prop := {
  hl_rec : forall p s, In s (sndrs i p) -> In (voteS s 0 p v) E;
  hl_q : In (voteS k 0 QUALITY v) E;
  hl_p : i_phase i = PREPARE \/ i_phase i = COMMIT -> In (voteS k 0 PREPARE v) E;
  hl_c : i_phase i = COMMIT -> In (voteS k 0 COMMIT v) E;
  hl_d : late i -> In (voteS k 0 DECIDE v) E;
  hl_dec : sndrs i DECIDE <> [] -> late i;
  hl_j : four (i_phase i) -> In k (sndrs i (i_phase i)) -> strong (sum_power c (sndrs i (i_phase i))) = false;
  hl_t : i_phase i = TERMINATED -> i_term i <> None }.
Definition HL (n : net) : Prop := forall k, member k -> i_phase (n_inst n k) <> INITIAL -> HLk (n_votes n) k (n_inst n k).

Lemma HLk_mono E E' k i : incl E E' -> HLk E k i -> HLk E' k i.
Proof. intros Hi [A B C D F G H I]. constructor; auto. Qed.

Lemma vS : valS v = Some v.
Proof. destruct (v_cons v Hv) as (x & w & ->). reflexivity. Qed.
Lemma bc_vote k i p : bc v i p -> In (voteS k 0 p v) (ovotes k (i_out i)).
Proof. intros (j & t & H). unfold ovotes. apply in_flat_map. eexists. split; [exact H|]. left. reflexivity. Qed.

Lemma own_below E k i p : 0 <= k -> Own E k (pkey i) -> i_round i = 0 -> votable p -> In (voteS k 0 p v) E ->
  phase_code p <= phase_code (i_phase i).
Proof using Hv Hhs.
  intros Hk HO Hr Hvt Hin. destruct (HO _ Hin eq_refl) as (r & p' & y & K & A & B & C & D & F).
  destruct (voteS_inj _ _ _ _ _ _ _ _ Hk Hk (Z.le_refl 0) B Hvt C A) as (_ & <- & <-).
  unfold pkey in F. rewrite Hr in F.
  destruct D as [(D1 & D2 & D3)|(D1 & D2)].
  - subst p. cbn. destruct F as [F|[F1 F2]]; [rewrite F in D3; cbn in D3; lia|]. cbn [fst snd] in *. specialize (F2 ltac:(lia)). lia.
  - subst K. destruct F as [F|[F1 F2]]; [injection F as F; lia|]. cbn [fst snd] in *. lia.
Qed.

Lemma four_votable p : four p -> votable p.
Proof. intros [-> | [-> | [-> | ->]]]; exact I. Qed.
Lemma four_dec p q : four p -> phase_eqb p q = true -> p = q.
Proof. intros _ H. apply phase_eqb_true. exact H. Qed.

(* further on, the vote of the step it is in cast (on arrival in TERMINATED: its DECIDE, unless it was in DECIDE before) *)
Definition adv (i i' : inst) : Prop :=
  phase_code (i_phase i) < phase_code (i_phase i') /\
  match i_phase i' with
  | PREPARE => bc v i' PREPARE
  | COMMIT => i_phase i = PREPARE /\ bc v i' COMMIT
  | DECIDE => bc v i' DECIDE
  | TERMINATED => i_term i' <> None /\ (i_phase i = DECIDE \/ bc v i' DECIDE)
  | _ => False
  end.
Lemma stepped_cases i m i' : stepped c v i m i' ->
  (i_phase i' = i_phase i /\ i_term i' = i_term i /\ (m_phase m = i_phase i -> noq c i')) \/ adv i i'.
Proof.
  intros ([D|[(D1 & D2 & D3 & _)|[(D1 & D2 & D3 & _)|[(D1 & D2 & D3 & _)|[(D1 & D2 & D3 & D4)|(D1 & D2 & D3)]]]]] & _); [left; exact D|right..];
    unfold adv; rewrite D2; cbn.
  - rewrite D1. cbn. split; [reflexivity|exact D3].
  - rewrite D1. cbn. split; [reflexivity|split; [reflexivity|exact D3]].
  - split; [exact D1|exact D3].
  - split; [exact (Z.lt_trans _ 5 6 D1 eq_refl)|split; [exact D4|right; exact D3]].
  - rewrite D1. cbn. split; [reflexivity|split; [exact D3|left; reflexivity]].
Qed.

Lemma HLk_next E E' k i m i' : incl E E' -> (forall p, bc v i' p -> In (voteS k 0 p v) E') ->
  HLk E k i -> (forall p s, In s (sndrs i' p) -> In (voteS s 0 p v) E) ->
  (forall p, phase_eqb p (m_phase m) = false -> sndrs i' p = sndrs i p) -> (sndrs i' DECIDE <> [] -> late i') ->
  (forall p, four p -> phase_code (i_phase i) < phase_code p -> ~ In k (sndrs i' p)) ->
  (i_phase i' = i_phase i /\ i_term i' = i_term i /\ (m_phase m = i_phase i -> noq c i')) \/ adv i i' -> HLk E' k i'.
Proof.
  intros HiE Hbc [L1 L2 L3 L4 L5 L6 L7 L8] Hrec Hsame Hdec Hfresh [(P & T & N)|(Lt & A)]; constructor; try exact Hdec;
    try (intros p s Hs; exact (HiE _ (Hrec p s Hs))); try exact (HiE _ L2).
  - rewrite P. intros H. exact (HiE _ (L3 H)).
  - rewrite P. intros H. exact (HiE _ (L4 H)).
  - unfold late. rewrite P. intros H. exact (HiE _ (L5 H)).
  - rewrite P. intros H4 Hin. destruct (phase_eqb (i_phase i) (m_phase m)) eqn:Ep.
    + apply phase_eqb_true in Ep. specialize (N (eq_sym Ep)). unfold noq in N. rewrite P in N.
      destruct H4 as [H4|[H4|[H4|H4]]]; rewrite H4 in *; exact N.
    + rewrite (Hsame _ Ep) in *. exact (L7 H4 Hin).
  - rewrite P, T. exact L8.
  - intros [H|H]; rewrite H in A; [exact (Hbc _ A)|exact (HiE _ (L3 (or_introl (proj1 A))))].
  - intros H. rewrite H in A. exact (Hbc _ (proj2 A)).
  - intros [H|H]; rewrite H in A; [exact (Hbc _ A)|]. destruct (proj2 A) as [Hd|Hb]; [exact (HiE _ (L5 (or_introl Hd)))|exact (Hbc _ Hb)].
  - intros H4 Hin. destruct (Hfresh _ H4 Lt Hin).
  - intros H. rewrite H in A. exact (proj1 A).
Qed.

(* the DECIDE tally is empty before DECIDE (InstanceOrder.Inv) *)
Lemma Inv_late i : Inv i -> sndrs i DECIDE <> [] -> late i.
Proof.
  intros (_ & I2 & _) H. unfold late. destruct (i_phase i) eqn:E; auto; destruct H; cbn [sndrs]; rewrite I2 by (cbn; lia); reflexivity.
Qed.

Lemma HL_node_step n k e : HL n -> HLk (n_votes (node_step c n k e)) k (step c (clear_out (n_inst n k)) e) -> HL (node_step c n k e).
Proof.
  intros HLn L k' Hm' Hp'. rewrite n_inst_node_step in *. destruct (Z.eqb_spec k' k) as [->|Hne]; [exact L|].
  apply (HLk_mono (n_votes n)); [apply incl_appr, incl_refl|exact (HLn k' Hm' Hp')].
Qed.

Theorem HL_step n a : NI n -> HN n -> HL n -> aok c honest n a -> happy_act n a -> HL (nstep c n a).
Proof.
  intros HNI (HV & HS) HLn Hok Hh.
  destruct a as [k now|k now m sway|k now sway|x]; cbn [happy_act] in Hh; try contradiction; cbn [nstep]; apply HL_node_step; try exact HLn.
  - destruct Hok as (Hm & Hph). destruct (proj2 HNI k Hm) as (_ & Hnew & _). unfold node_step. cbn [n_votes].
    rewrite (Hnew Hph), (Hunanimous _ (proj2 Hm)). cbn [step]. unfold begin_quality, new_instance. cbn.
    constructor; cbn; try discriminate; try (intros H; exfalso; apply H; reflexivity); try (intros [H|H]; discriminate H).
    + intros p s. destruct p; cbn; intros [].
    + left. reflexivity.
    + intros _ [].
  - pose proof Hok as (Hm & Hph & Hadm). pose proof (HS k Hm Hph) as S0.
    destruct (net_deliver c honest input v Hwf Hv Hunanimous n k now m sway HNI (conj HV HS) Hok) as (S1 & Hvm & He0 & He & Hdel & HI').
    pose proof (step_effect c v Hv Hwf Hrr _ now m sway S1 Hh Hvm He0 He) as SE. cbv zeta in SE.
    set (i := n_inst n k) in *. set (i' := step c (clear_out i) (EvDeliver now m sway)) in *.
    assert (Hrec : forall p s, In s (sndrs i' p) -> In (voteS s 0 p v) (n_votes n)).
    { intros p s Hs. destruct SE as [(_ & B & _)|(_ & B & _)]; rewrite (B p) in Hs; [exact (hl_rec _ _ _ (HLn k Hm Hph) p s Hs)|].
      destruct (phase_eqb p (m_phase m)) eqn:Ep; [|exact (hl_rec _ _ _ (HLn k Hm Hph) p s Hs)].
      apply addz_In in Hs. destruct Hs as [->|Hs]; [|exact (hl_rec _ _ _ (HLn k Hm Hph) p s Hs)].
      apply phase_eqb_true in Ep. subst p. exact Hdel. }
    apply (HLk_next (n_votes n) _ k i m i'); try exact (Inv_late _ HI'); try exact Hrec; try exact (HLn k Hm Hph).
    + apply incl_appr, incl_refl.
    + intros p Hb. apply in_or_app. left. exact (bc_vote k _ p Hb).
    + intros p Ep. destruct SE as [(_ & B & _)|(_ & B & _)]; rewrite (B p), ?Ep; reflexivity.
    + (* the participant never holds its own vote for a step it has not reached *)
      intros p Hp Hlt Hin.
      pose proof (own_below (n_votes n) k i p (proj1 (proj1 Hm)) (proj1 (proj2 HNI k Hm)) (sh_round c v _ S0) (four_votable p Hp) (Hrec p k Hin)). lia.
    + destruct SE as [(A & _ & C & D)|(_ & _ & _ & D)]; [left; rewrite C, D; split; [symmetry; exact A|split; [reflexivity|]]|exact (stepped_cases _ _ _ D)].
      intros _. unfold noq. rewrite C. exact I.
Qed.

Lemma HL_net0 : HL (net0 input).
Proof. intros k _ Hp. cbn in Hp. congruence. Qed.

Theorem live_run acts : forall n, NI n -> HN n -> HL n -> all_ok c honest n acts -> all_happy c n acts ->
  NI (nrun c n acts) /\ HN (nrun c n acts) /\ HL (nrun c n acts).
Proof.
  intros n HNI HHN HHL Hok Hh.
  destruct (nrun_ind c honest input Hwf Hscaled (Hinput honest input v Hv Hunanimous) (fun n acts => HN n /\ HL n /\ all_happy c n acts))
    with (acts := acts) (n := n) as (A & B & C & _); [|assumption|assumption|auto|auto].
  intros n0 a rest HNI0 Ha (HHN0 & HHL0 & Hh0 & Hrest).
  split; [apply (happy_step c honest input v Hwf Hrr Hv Hunanimous); assumption|]. split; [apply HL_step; assumption|exact Hrest].
Qed.

(* "delivered" in terms of the receiver's state: recorded in the tally, or the receiver is done *)
Definition rcd (n : net) (k s : Z) (p : phase) : Prop := i_phase (n_inst n k) = TERMINATED \/ In s (sndrs (n_inst n k) p).

Lemma deliver_effect n k now m sway : NI n -> HN n -> aok c honest n (ADeliver k now m sway) -> happy_act n (ADeliver k now m sway) ->
  let i := n_inst n k in let i' := n_inst (nstep c n (ADeliver k now m sway)) k in
  (i_phase i = TERMINATED /\ (forall p, sndrs i' p = sndrs i p) /\ i_phase i' = TERMINATED) \/
  (i_phase i <> TERMINATED /\ forall p, sndrs i' p = if phase_eqb p (m_phase m) then addz (m_sender m) (sndrs i p) else sndrs i p).
Proof.
  intros HNI HHN Hok Hh. cbn [happy_act] in Hh. cbn [nstep]. unfold node_step. cbn [n_inst]. rewrite upd_same.
  destruct (net_deliver c honest input v Hwf Hv Hunanimous n k now m sway HNI HHN Hok) as (S1 & Hvm & He0 & He & _).
  pose proof (step_effect c v Hv Hwf Hrr _ now m sway S1 Hh Hvm He0 He) as SE.
  cbv zeta in *. destruct SE as [(A & B & C & D)|(A & B & C & D)].
  - left. split; [exact A|]. split; [exact B|exact C].
  - right. split; [exact A|exact B].
Qed.

Lemma rcd_step n a k s p : NI n -> HN n -> aok c honest n a -> happy_act n a -> member k -> rcd n k s p -> rcd (nstep c n a) k s p.
Proof.
  intros HNI HHN Hok Hh Hk Hr. destruct a as [k' now|k' now m sway|k' now sway|x]; cbn [happy_act] in Hh; try contradiction;
    unfold rcd in *; cbn [nstep]; rewrite n_inst_node_step; destruct (Z.eqb_spec k k') as [->|Hne]; try exact Hr.
  - exfalso. destruct Hok as (Hm & Hph). destruct (proj2 HNI k' Hm) as (_ & Hnew & _).
    rewrite (Hnew Hph) in Hr. destruct Hr as [Hr|Hr]; [discriminate Hr|destruct p; cbn in Hr; exact Hr].
  - pose proof (deliver_effect n k' now m sway HNI HHN Hok Hh) as DE. cbv zeta in DE. cbn [nstep] in DE. rewrite n_inst_node_step, Z.eqb_refl in DE.
    destruct DE as [(A & B & C)|(A & B)]; [left; exact C|].
    destruct Hr as [Hr|Hr]; [contradiction|]. right. rewrite (B p).
    destruct (phase_eqb p (m_phase m)); [apply addz_In; right; exact Hr|exact Hr].
Qed.
Lemma rcd_deliver n k now m sway : NI n -> HN n -> aok c honest n (ADeliver k now m sway) -> happy_act n (ADeliver k now m sway) ->
  rcd (nstep c n (ADeliver k now m sway)) k (m_sender m) (m_phase m).
Proof.
  intros HNI HHN Hok Hh. pose proof (deliver_effect n k now m sway HNI HHN Hok Hh) as DE. cbv zeta in DE. unfold rcd.
  destruct DE as [(A & B & C)|(A & B)]; [left; exact C|]. right. rewrite (B (m_phase m)).
  replace (phase_eqb (m_phase m) (m_phase m)) with true by (symmetry; unfold phase_eqb; apply Z.eqb_refl).
  apply addz_In. left. reflexivity.
Qed.

Definition delivered (acts : list action) (k s : Z) (p : phase) : Prop :=
  exists now m sway, In (ADeliver k now m sway) acts /\ m_sender m = s /\ m_phase m = p.

Lemma delivered_rcd acts k s p : member k -> forall n, NI n -> HN n -> HL n -> all_ok c honest n acts -> all_happy c n acts ->
  delivered acts k s p \/ rcd n k s p -> rcd (nrun c n acts) k s p.
Proof.
  intros Hk n HNI HHN HHL Hok Hh Hd.
  destruct (nrun_ind c honest input Hwf Hscaled (Hinput honest input v Hv Hunanimous)
              (fun n acts => HN n /\ HL n /\ all_happy c n acts /\ (delivered acts k s p \/ rcd n k s p)))
    with (acts := acts) (n := n) as (_ & _ & _ & _ & [(now & m & sway & [] & _)|R]); [|assumption|assumption|auto|exact R].
  intros n0 a rest HNI0 Ha (HHN0 & HHL0 & (Hh0 & Hrest) & Hd0).
  split; [apply (happy_step c honest input v Hwf Hrr Hv Hunanimous); assumption|]. split; [apply HL_step; assumption|]. split; [exact Hrest|].
  destruct Hd0 as [(now & m & sway & [E|Hin] & Es & Ep)|Hd0].
  - right. subst a s p. apply rcd_deliver; assumption.
  - left. exists now, m, sway. repeat split; assumption.
  - right. apply rcd_step; assumption.
Qed.

Definition saturated (n : net) : Prop :=
  forall k s p, member k -> member s -> four p -> In (voteS s 0 p v) (n_votes n) -> rcd n k s p.

(* counting: if every member has cast its vote of step p and everything cast is recorded, the step-p tally of a member
   that has not terminated holds the votes of all of hs, its own included -- so it cannot still be in step p (hl_j) *)
Lemma not_stuck n p : HL n -> (forall k, member k -> i_phase (n_inst n k) <> INITIAL) -> saturated n -> four p ->
  (forall s, member s -> In (voteS s 0 p v) (n_votes n)) -> forall k, member k -> i_phase (n_inst n k) <> p.
Proof.
  intros HHL Hst Hsat Hp Hall k Hk Ep. destruct (committee_wf_ok c Hwf) as (Htot & Hpow & _).
  assert (Hincl : incl hs (sndrs (n_inst n k) p)).
  { intros s Hs. apply Hhs in Hs. destruct (Hsat k s p Hk Hs Hp (Hall s Hs)) as [H|H]; [|exact H].
    destruct Hp as [-> | [-> | [-> | ->]]]; congruence. }
  pose proof (hl_j _ _ _ (HHL k Hk (Hst k Hk))) as J. rewrite Ep in J.
  assert (B : strong (sum_power c (sndrs (n_inst n k) p)) = true).
  { apply (strong_quorum_mono (sum_power c hs)); [|exact Hhstrong]. exact (sum_sub (power_of c) Hpow hs _ Hhnd Hincl). }
  rewrite (J Hp (Hincl k (proj1 (Hhs k) Hk))) in B. discriminate B.
Qed.

(* a DECIDE vote takes its receiver to DECIDE: one late member makes everybody late *)
Lemma late_all n k0 k : HL n -> (forall k, member k -> i_phase (n_inst n k) <> INITIAL) -> saturated n ->
  member k0 -> member k -> late (n_inst n k0) -> late (n_inst n k).
Proof.
  intros HHL Hst Hsat Hk0 Hk Hl. pose proof (hl_d _ _ _ (HHL k0 Hk0 (Hst k0 Hk0)) Hl) as Hd.
  destruct (Hsat k k0 DECIDE Hk Hk0 (or_intror (or_intror (or_intror eq_refl))) Hd) as [H|H]; [right; exact H|].
  apply (hl_dec _ _ _ (HHL k Hk (Hst k Hk))). intros E0. rewrite E0 in H. exact H.
Qed.

(* if nobody is late all are in PREPARE or COMMIT and have prepared; so nobody is in PREPARE, all have committed, and nobody
   is in COMMIT either *)
Lemma somebody_late n : HN n -> HL n -> (forall k, member k -> i_phase (n_inst n k) <> INITIAL) -> saturated n ->
  (forall s, member s -> ~ late (n_inst n s)) -> forall k, ~ member k.
Proof.
  intros (_ & HS) HHL Hst Hsat Hnl k Hk.
  pose proof (fun p Hp Hall => not_stuck n p HHL Hst Hsat Hp Hall) as NS.
  pose proof (fun s Hs => HHL s Hs (Hst s Hs)) as L.
  assert (pc : forall s, member s -> i_phase (n_inst n s) = PREPARE \/ i_phase (n_inst n s) = COMMIT).
  { intros s Hs. destruct (sh_phase c v _ (HS s Hs (Hst s Hs))) as [Vs|[Vs|[Vs|[Vs|Vs]]]]; auto.
    - destruct (NS QUALITY (or_introl eq_refl) (fun s Hs => hl_q _ _ _ (L s Hs)) s Hs Vs).
    - destruct (Hnl s Hs (or_introl Vs)).
    - destruct (Hnl s Hs (or_intror Vs)). }
  pose proof (NS PREPARE (or_intror (or_introl eq_refl)) (fun s Hs => hl_p _ _ _ (L s Hs) (pc s Hs))) as NP.
  assert (allc : forall s, member s -> i_phase (n_inst n s) = COMMIT).
  { intros s Hs. destruct (pc s Hs) as [H|H]; [destruct (NP s Hs H)|exact H]. }
  exact (NS COMMIT (or_intror (or_intror (or_introl eq_refl))) (fun s Hs => hl_c _ _ _ (L s Hs) (allc s Hs)) k Hk (allc k Hk)).
Qed.

Theorem saturated_decided n : NI n -> HN n -> HL n ->
  (forall k, member k -> i_phase (n_inst n k) <> INITIAL) -> saturated n ->
  forall k, member k -> i_phase (n_inst n k) = TERMINATED /\ exists j, i_term (n_inst n k) = Some j /\ j_value j = v.
Proof.
  intros _ HHN HHL Hst Hsat k Hk. pose proof (fun s Hs => HHL s Hs (Hst s Hs)) as L.
  pose proof (proj2 HHN k Hk (Hst k Hk)) as S.
  assert (Hl : late (n_inst n k)).
  { destruct (sh_phase c v _ S) as [Vp|[Vp|[Vp|[Vp|Vp]]]]; [| | |left; exact Vp|right; exact Vp];
      destruct (somebody_late n HHN HHL Hst Hsat) with (k := k); try exact Hk;
      intros s Hs Hls; destruct (late_all n s k HHL Hst Hsat Hs Hk Hls); congruence. }
  assert (term : i_phase (n_inst n k) = TERMINATED).
  { destruct Hl as [Vp|Vp]; [exfalso|exact Vp].
    exact (not_stuck n DECIDE HHL Hst Hsat (or_intror (or_intror (or_intror eq_refl)))
             (fun s Hs => hl_d _ _ _ (L s Hs) (late_all n k s HHL Hst Hsat Hk Hs (or_introl Vp))) k Hk Vp). }
  split; [exact term|].
  pose proof (hl_t _ _ _ (L k Hk) term) as Ht. destruct (i_term (n_inst n k)) as [j|] eqn:Ej; [|contradiction].
  exists j. split; [reflexivity|]. exact (sh_term c v _ S j Ej).
Qed.

(* every honest member proposes v and together they hold a strong quorum; no faulty vote, no timer, deliveries timely
   (all_happy).  If every honest member has started and every vote cast has been delivered to every honest member --
   in whatever order, interleaved in whatever way with the starts -- then every honest member has decided v. *)
Theorem happy_all_decide acts :
  all_ok c honest (net0 input) acts -> all_happy c (net0 input) acts ->
  let n := nrun c (net0 input) acts in
  (forall k, member k -> i_phase (n_inst n k) <> INITIAL) ->
  (forall k s p, member k -> member s -> four p -> In (voteS s 0 p v) (n_votes n) -> delivered acts k s p) ->
  forall k, member k -> i_phase (n_inst n k) = TERMINATED /\ exists j, i_term (n_inst n k) = Some j /\ j_value j = v.
Proof.
  intros Hok Hh n Hst Hdel.
  destruct (live_run acts (net0 input) (NI_net0 c honest input) (HN_net0 c honest input v) HL_net0 Hok Hh) as (HNI & HHN & HHL).
  apply saturated_decided; try assumption.
  intros k s p Hk Hs Hp Hin.
  apply (delivered_rcd acts k s p Hk (net0 input) (NI_net0 c honest input) (HN_net0 c honest input v) HL_net0 Hok Hh).
  left. exact (Hdel k s p Hk Hs Hp Hin).
Qed.
End Net.

(* executable form of the delivery hypothesis (for the non-vacuity example) *)
Definition deliveredb (acts : list action) (k s : Z) (p : phase) : bool :=
  existsb (fun a => match a with
                    | ADeliver k' _ m _ => (k' =? k) && (m_sender m =? s) && phase_eqb (m_phase m) p
                    | _ => false end) acts.
Lemma deliveredb_sound acts k s p : deliveredb acts k s p = true -> delivered acts k s p.
Proof.
  unfold deliveredb. rewrite existsb_exists. intros (a & Hin & Ha). destruct a as [|k' now m sway| |]; try discriminate Ha.
  apply andb_true_iff in Ha. destruct Ha as [Ha Hp]. apply andb_true_iff in Ha. destruct Ha as [Hk Hs].
  apply Z.eqb_eq in Hk. apply Z.eqb_eq in Hs. apply phase_eqb_true in Hp. subst k' s p.
  exists now, m, sway. repeat split. exact Hin.
Qed.
