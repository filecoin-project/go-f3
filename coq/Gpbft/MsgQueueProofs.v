(* messageQueue: nothing that Add accepts is lost before Drain.
   For every sequence of arrivals: the queue holds exactly the FIRST message of every (instance, sender, round, step) slot
   among the arrivals that are not "unjustified beyond the look-ahead limit"; Drain returns exactly the queued messages of
   the instance (a permutation, ordered by round and step) and leaves the other instances untouched.  In particular a
   sender's messages are never dropped for being many: DECIDE and late-round justified votes of a peer that has long
   terminated are still there when the participant starts. *)
From Coq Require Import ZArith List Bool Permutation.
From F3 Require Import ListX MsgQueue.
Import ListNotations.
Open Scope Z_scope.

Definition admissible (max_round : Z) (m : qmsg) : bool := negb ((max_round <? qm_round m) && spammable m).

Lemma same_slot_iff a b :
  same_slot a b = true <->
  qm_inst a = qm_inst b /\ qm_sender a = qm_sender b /\ qm_round a = qm_round b /\ qm_phase a = qm_phase b.
Proof. unfold same_slot. rewrite !andb_true_iff, !Z.eqb_eq. tauto. Qed.
Lemma same_slot_refl m : same_slot m m = true.
Proof. apply same_slot_iff. auto. Qed.
Lemma same_slot_sym a b : same_slot a b = same_slot b a.
Proof. unfold same_slot. rewrite (Z.eqb_sym (qm_inst a)), (Z.eqb_sym (qm_sender a)), (Z.eqb_sym (qm_round a)), (Z.eqb_sym (qm_phase a)). reflexivity. Qed.
Lemma same_slot_trans a b c : same_slot a b = true -> same_slot b c = true -> same_slot a c = true.
Proof. rewrite !same_slot_iff. intros (? & ? & ? & ?) (? & ? & ? & ?). repeat split; congruence. Qed.

Lemma q_add_spec mr q m x :
  In x (q_add mr q m) <-> In x q \/ (x = m /\ admissible mr m = true /\ existsb (same_slot m) q = false).
Proof.
  unfold q_add, admissible. destruct ((mr <? qm_round m) && spammable m); cbn [negb].
  - split; [intros H; left; exact H|intros [H|(_ & H & _)]; [exact H|discriminate H]].
  - destruct (existsb (same_slot m) q) eqn:E.
    + split; [intros H; left; exact H|intros [H|(_ & _ & H)]; [exact H|discriminate H]].
    + rewrite in_app_iff. cbn. split.
      * intros [H|[H|[]]]; [left; exact H|right; repeat split; symmetry; exact H].
      * intros [H|(-> & _ & _)]; [left; exact H|right; left; reflexivity].
Qed.

Lemma q_add_incl mr q m : incl q (q_add mr q m).
Proof. intros x Hx. apply q_add_spec. left. exact Hx. Qed.
Lemma q_run_from_incl mr ms : forall q, incl q (fold_left (q_add mr) ms q).
Proof.
  intros q. apply (fold_left_inv (incl q)); [|apply incl_refl].
  intros q' m H. eapply incl_tran; [exact H|apply q_add_incl].
Qed.

Definition slots_unique (q : queue) : Prop :=
  forall a b, In a q -> In b q -> same_slot a b = true -> a = b.
Lemma existsb_same_slot_false m q : existsb (same_slot m) q = false -> forall x, In x q -> same_slot m x = false.
Proof.
  intros H x Hx. destruct (same_slot m x) eqn:E; [|reflexivity].
  assert (existsb (same_slot m) q = true) by (apply existsb_exists; exists x; split; assumption). congruence.
Qed.
Lemma q_add_unique mr q m : slots_unique q -> slots_unique (q_add mr q m).
Proof.
  intros U a b Ha Hb Hs. apply q_add_spec in Ha. apply q_add_spec in Hb.
  destruct Ha as [Ha|(-> & _ & Ea)]; destruct Hb as [Hb|(-> & _ & Eb)]; [exact (U a b Ha Hb Hs)| | |reflexivity].
  - rewrite same_slot_sym in Hs. rewrite (existsb_same_slot_false _ _ Eb a Ha) in Hs. discriminate Hs.
  - rewrite (existsb_same_slot_false _ _ Ea b Hb) in Hs. discriminate Hs.
Qed.
Lemma q_run_from_unique mr ms : forall q, slots_unique q -> slots_unique (fold_left (q_add mr) ms q).
Proof. apply fold_left_inv. intros q m. apply q_add_unique. Qed.

Lemma q_add_represented mr q m : admissible mr m = true -> exists x, In x (q_add mr q m) /\ same_slot m x = true.
Proof.
  intros Ha. destruct (existsb (same_slot m) q) eqn:E.
  - apply existsb_exists in E. destruct E as (x & Hx & Hs). exists x. split; [apply q_add_incl; exact Hx|exact Hs].
  - exists m. split; [apply q_add_spec; right; repeat split; assumption|apply same_slot_refl].
Qed.

Theorem queue_keeps_every_slot mr ms m : In m ms -> admissible mr m = true ->
  exists x, In x (q_run mr ms) /\ same_slot m x = true.
Proof.
  unfold q_run. generalize (@nil qmsg) as q. induction ms as [|y ms IH]; intros q Hin Ha; [destruct Hin|]. cbn [fold_left].
  destruct Hin as [->|Hin].
  - destruct (q_add_represented mr q m Ha) as (x & Hx & Hs). exists x. split; [apply (q_run_from_incl mr ms); exact Hx|exact Hs].
  - apply IH; assumption.
Qed.

Lemma sort_msgs_perm l : Permutation (sort_msgs l) l.
Proof. apply (isort_perm _ key_le). Qed.

Theorem drain_exact q inst x :
  In x (fst (q_drain q inst)) <-> In x q /\ qm_inst x = inst.
Proof.
  unfold q_drain. cbn [fst]. split.
  - intros H. apply (Permutation_in _ (sort_msgs_perm _)) in H. apply filter_In in H. destruct H as [H1 H2]. apply Z.eqb_eq in H2. split; assumption.
  - intros [H1 H2]. apply (Permutation_in _ (Permutation_sym (sort_msgs_perm _))). apply filter_In. split; [exact H1|apply Z.eqb_eq; exact H2].
Qed.
Theorem drain_leaves_others q inst x :
  In x (snd (q_drain q inst)) <-> In x q /\ qm_inst x <> inst.
Proof.
  unfold q_drain. cbn [snd]. rewrite filter_In. split; intros [H1 H2]; split; try exact H1.
  - apply negb_true_iff, Z.eqb_neq in H2. exact H2.
  - apply negb_true_iff, Z.eqb_neq. exact H2.
Qed.
Theorem drain_no_duplication q inst : Permutation (fst (q_drain q inst)) (filter (fun m => qm_inst m =? inst) q).
Proof. apply sort_msgs_perm. Qed.

(* the statement that matters to C06: whatever arrived for instance i before the participant started -- justified, or
   within the look-ahead -- is handed to the instance when it starts (its slot's first arrival), however many messages
   each sender had queued *)
Theorem queued_messages_delivered_at_start mr ms i m :
  In m ms -> qm_inst m = i -> admissible mr m = true ->
  exists x, In x (fst (q_drain (q_run mr ms) i)) /\ same_slot m x = true.
Proof.
  intros Hin Hi Ha. destruct (queue_keeps_every_slot mr ms m Hin Ha) as (x & Hx & Hs). exists x. split; [|exact Hs].
  apply drain_exact. split; [exact Hx|]. rewrite <- (proj1 (proj1 (same_slot_iff m x) Hs)). exact Hi.
Qed.

Example queue_example :
  let ms := [mkQM 3 1 0 1 false 10; mkQM 3 1 0 3 false 11; mkQM 3 1 2 3 false 12; mkQM 3 1 2 3 true 13; mkQM 3 2 5 5 true 14;
             mkQM 3 1 0 3 false 15; mkQM 4 1 0 1 false 16] in
  map qm_tag (fst (q_drain (q_run 1 ms) 3)) = [10; 11; 13; 14] /\ map qm_tag (snd (q_drain (q_run 1 ms) 3)) = [16].
Proof. split; reflexivity. Qed.
