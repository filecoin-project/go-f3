(* Layer N, C07 "no internal error or panic", run level: on every sequence of alarms and deliveries of messages whatever
   they carry, in any interleaving (only that a DECIDE message is for round 0: wfe, what validation enforces), an instance never reports one of the quorum-bookkeeping panics
     "multiple chains with strong quorum"            (PMultiQuorum)
     "strong quorum exists but could not be found"   (PFindQuorum)
     tryDecide / beginDecide without a quorum        (PTryDecide, PBeginDecide)
     beginCommit without a justification             (PBeginCommit)
   The invariant carried through the run: every PREPARE / COMMIT / DECIDE quorum state of every round satisfies QS. *)
From Coq Require Import ZArith List Bool Lia.
From F3 Require Import QuorumProofs Sets Instance InstanceRun InstanceOrder InstanceStep InstanceConverge InstanceDecide InstanceQuorum.
Import ListNotations.
Open Scope Z_scope.

Section Cfg.
Variable c : config.
Hypothesis Htotal : 0 < c_total c < two62.
Hypothesis Hpow : forall s, 0 <= power_of c s.
Hypothesis Hsum : forall l, NoDup l -> sum_power c l <= c_total c.

(* the fields AllQ looks at *)
Definition rd (i : inst) := (i_rounds i, i_decision i).
Definition AllQ (i : inst) : Prop :=
  QS c (i_decision i) /\ forall r, QS c (r_prep (rget (i_rounds i) r)) /\ QS c (r_comm (rget (i_rounds i) r)).
Definition QP (e : ierr) : Prop :=
  match e with PMultiQuorum | PFindQuorum | PTryDecide | PBeginDecide | PBeginCommit => True | _ => False end.
Definition NQ : inst -> Prop := NE QP.

Lemma AllQ_rd i i' : rd i' = rd i -> AllQ i -> AllQ i'.
Proof. unfold rd, AllQ. intros E. injection E as -> ->. auto. Qed.

Lemma rd_quiet i i' : quiet i i' -> rd i' = rd i /\ i_err i' = i_err i.
Proof. intros [E _]. destruct (core_fields _ _ E) as (_ & _ & _ & _ & _ & E6 & E7 & _ & _ & _ & E11). unfold rd. rewrite E6, E7. auto. Qed.
Lemma rd_try_rebroadcast i : rd (try_rebroadcast c i) = rd i /\ i_err (try_rebroadcast c i) = i_err i.
Proof. apply rd_quiet, quiet_try_rebroadcast. Qed.
Lemma rd_begin_prepare i j : rd (begin_prepare c i j) = rd i /\ i_err (begin_prepare c i j) = i_err i.
Proof. split; reflexivity. Qed.
Lemma rd_begin_commit i : rd (begin_commit c i) = rd i.
Proof. apply begin_commit_cases; reflexivity. Qed.
Lemma rd_begin_decide i round : rd (begin_decide c i round) = rd i.
Proof. apply begin_decide_cases; reflexivity. Qed.
Lemma rd_try_quality i : rd (try_quality c i) = rd i /\ i_err (try_quality c i) = i_err i.
Proof. apply try_quality_cases; intros; [split; reflexivity|]. destruct (settle_nf i) as (l & _ & _ & -> & _). split; reflexivity. Qed.
Lemma rd_try_converge i : rd (try_converge c i) = rd i.
Proof. apply try_converge_cases; intros; try reflexivity. apply rd_try_rebroadcast. Qed.
Lemma rd_try_prepare i : rd (try_prepare c i) = rd i.
Proof. apply try_prepare_cases; intros; try (rewrite rd_begin_commit); try reflexivity. apply rd_try_rebroadcast. Qed.
Lemma rd_try_decide i : rd (try_decide c i) = rd i.
Proof. apply try_decide_cases; intros; try reflexivity. apply rd_try_rebroadcast. Qed.

Lemma AllQ_set_round_state i r s : AllQ i -> QS c (r_prep s) -> QS c (r_comm s) -> AllQ (set_round_state i r s).
Proof.
  intros [Hd Hr] Hp Hc. split; [exact Hd|]. intros r'. cbn.
  revert r'. apply (rget_rset_all (fun _ s => QS c (r_prep s) /\ QS c (r_comm s))); [split; assumption|exact Hr].
Qed.

Lemma GQ_begin_converge i j : AllQ i -> NQ i -> AllQ (begin_converge c i j) /\ NQ (begin_converge c i j).
Proof.
  intros HA HN. apply begin_converge_cases; intros _; [split; [exact HA|apply NE_fail; [intros []|exact HN]]|].
  split; [|exact HN].
  match goal with |- AllQ (emit (set_round_state ?x ?r ?s) _) => apply (AllQ_rd (set_round_state x r s)); [reflexivity|apply AllQ_set_round_state] end;
    [exact HA|apply HA|apply HA].
Qed.

Lemma GQ_begin_next_round i : AllQ i -> NQ i -> AllQ (begin_next_round c i) /\ NQ (begin_next_round c i).
Proof.
  intros HA HN. apply begin_next_round_cases; intros.
  - apply GQ_begin_converge; assumption.
  - exfalso. eapply (find_sq_for_no_panic c Htotal); [apply HA|eassumption].
  - split; [exact HA|apply NE_fail; [intros []|exact HN]].
Qed.

Lemma GQ_skip_to_round i round v j : AllQ i -> NQ i -> AllQ (skip_to_round c i round v j) /\ NQ (skip_to_round c i round v j).
Proof. intros HA HN. destruct (skip_to_round_spec c i round v j) as (l & p & w & -> & _). apply GQ_begin_converge; assumption. Qed.

Lemma GQ_try_commit i round sway : AllQ i -> i_err i = None ->
  AllQ (try_commit c i round sway) /\ NQ (try_commit c i round sway).
Proof.
  intros HA He. pose proof (NE_none QP i He) as HN. apply try_commit_cases; intros.
  - exfalso. apply (find_sq_value_no_panic c Htotal Hsum (r_comm (get_round i round))); [apply HA|assumption].
  - split; [apply (AllQ_rd i); [|exact HA]; rewrite rd_begin_decide; reflexivity|].
    apply NE_none. apply (begin_decide_no_panic c Htotal); [apply HA|assumption|exact He].
  - split; assumption.
  - apply GQ_begin_next_round; assumption.
  - apply GQ_begin_next_round; assumption.
  - apply GQ_begin_next_round; assumption.
  - destruct (rd_try_rebroadcast i) as [A B]. split; [apply (AllQ_rd i); assumption|apply (NE_err QP i); assumption].
Qed.

Lemma GQ_try_current_phase i sway : AllQ i -> i_err i = None ->
  AllQ (try_current_phase c i sway) /\ NQ (try_current_phase c i sway).
Proof.
  intros HA He. apply try_current_phase_cases; intros _.
  - split; [exact HA|apply NE_fail; [intros []|apply NE_none; exact He]].
  - destruct (rd_try_quality i) as [A B]. split; [apply (AllQ_rd i); assumption|apply NE_none; congruence].
  - split; [apply (AllQ_rd i); [apply rd_try_converge|exact HA]|apply NE_try_converge; [intros []|exact He]].
  - split; [apply (AllQ_rd i); [apply rd_try_prepare|exact HA]|apply NE_none, (try_prepare_err_none c Htotal); [apply HA|exact He]].
  - apply GQ_try_commit; assumption.
  - split; [apply (AllQ_rd i); [apply rd_try_decide|exact HA]|].
    apply NE_none. apply (try_decide_no_panic c Htotal Hsum); [apply HA|exact He].
  - split; [exact HA|apply NE_none; exact He].
Qed.

Lemma AllQ_absorb i m : AllQ i -> absorbs c AllQ QP i m.
Proof.
  intros HA. unfold absorbs. cbv zeta.
  assert (Hp0 : QS c (r_prep (get_round i (m_round m)))) by apply HA.
  assert (Hc0 : QS c (r_comm (get_round i (m_round m)))) by apply HA.
  assert (Hq : forall q sender v, QS c q -> QS c (q_receive c q sender v)) by (intros; apply QS_receive; assumption).
  destruct (m_phase m).
  - intros [].
  - apply (AllQ_set_round_state (set_quality i _)); assumption.
  - destruct (c_receive _ _ _ _ _); [apply AllQ_set_round_state; assumption|intros []].
  - apply AllQ_set_round_state; try assumption. unfold prep_update. cbn. destruct (m_just m); [apply QS_receive_just|]; apply Hq; exact Hp0.
  - apply AllQ_set_round_state; try assumption. unfold comm_update. cbn.
    destruct (m_value m); [apply Hq; exact Hc0|]. destruct (m_just m); [apply QS_receive_just|]; apply Hq; exact Hc0.
  - apply (AllQ_set_round_state (set_decision i _)); try assumption. split; [cbn; apply Hq; apply HA|apply HA].
  - intros [].
Qed.

Lemma AllQ_new input now : AllQ (new_instance input now).
Proof.
  split; [apply QS_empty|]. intros r. cbn [new_instance i_rounds rget]. destruct (0 =? r); split; apply QS_empty.
Qed.

Lemma GQ_Post x : AllQ x /\ NQ x -> Post AllQ QP x.
Proof. intros [A N]. split; [intros _; exact A|exact N]. Qed.
Lemma AllQ_core i i' : core i' = core i -> AllQ i -> AllQ i'.
Proof. intros E. apply AllQ_rd. destruct (core_fields _ _ E) as (_ & _ & _ & _ & _ & E6 & E7 & _). unfold rd. congruence. Qed.
Lemma AllQ_restart i now : AllQ i -> i_err i = None -> Post AllQ QP (begin_quality c (set_now i now)).
Proof. intros HA He. apply begin_quality_cases; intros _; [apply Post_fail; [intros []|exact He]|apply Post_none; assumption]. Qed.
Lemma AllQ_clears : clears AllQ. Proof. intros x H. exact H. Qed.
Lemma AllQ_StepInv : StepInv c AllQ QP (fun _ => True) (fun _ => True).
Proof.
  exact {| oke_msg := fun _ _ _ _ => I;
           P_restart := fun i now _ _ HA He => AllQ_restart i now HA He;
           P_quiet := fun i i' Q => AllQ_core i i' (quiet_core i i' Q);
           P_cands := fun i l _ _ _ HA => HA;
           P_tcp := fun i sw _ HA He => GQ_Post _ (GQ_try_current_phase i sw HA He);
           P_commit := fun i m sw _ _ HA He _ => GQ_Post _ (GQ_try_commit i (m_round m) sw HA He);
           P_skipd := fun i m _ _ _ HA _ => HA;
           P_skip := fun i round w _ HA He _ _ _ _ => GQ_Post _ (GQ_skip_to_round i round (cv_chain w) (cv_just w) HA (NE_none QP i He));
           P_absorb := fun i m _ HA _ _ => AllQ_absorb i m HA |}.
Qed.

Theorem quorum_panics_unreachable input now evs e :
  Forall wfe evs -> i_err (snd (run_hist c (started c input now) evs)) = Some e -> ~ QP e.
Proof.
  intros Hw.
  assert (H : Post AllQ QP (snd (run_hist c (started c input now) evs))).
  { apply (Post_run c _ _ _ _ AllQ_StepInv); [exact AllQ_clears|apply Inv_started|apply Post_none; [exact (AllQ_new input now)|reflexivity]|].
    apply Forall_forall. intros x Hx. split; [exact (proj1 (Forall_forall _ _) Hw x Hx)|exact I]. }
  exact (proj2 H e).
Qed.

End Cfg.

(* what gpbft.PowerTable guarantees: non-negative scaled powers, ScaledTotal is their sum; 2^62 bounds the Go arithmetic *)
Definition committee_wf (c : config) : Prop :=
  Forall (fun p => 0 <= p) (c_powers c) /\ c_total c = fold_right Z.add 0 (c_powers c) /\ 0 < c_total c < two62.

Lemma sum_sub (f : Z -> Z) (Hf : forall x, 0 <= f x) : forall l dom, NoDup l -> incl l dom ->
  fold_right (fun x a => f x + a) 0 l <= fold_right (fun x a => f x + a) 0 dom.
Proof. exact (sumf_incl_nodup f Hf). Qed.

Lemma map_nth_seq (p : list Z) : map (fun k => nth k p 0) (seq 0 (length p)) = p.
Proof.
  induction p as [|a p IH]; [reflexivity|]. cbn [length]. rewrite <- cons_seq, <- seq_shift. cbn [map nth]. rewrite map_map. cbn [nth].
  rewrite IH. reflexivity.
Qed.

Lemma sum_power_members c : sum_power c (map Z.of_nat (seq 0 (length (c_powers c)))) = fold_right Z.add 0 (c_powers c).
Proof.
  rewrite <- (map_nth_seq (c_powers c)) at 2. set (n := length (c_powers c)).
  assert (Hm : forall (l0 : list nat), (forall k, In k l0 -> (k < n)%nat) ->
            sum_power c (map Z.of_nat l0) = fold_right Z.add 0 (map (fun k => nth k (c_powers c) 0) l0)).
  { induction l0 as [|k l0 IH]; intros Hk; [reflexivity|]. unfold sum_power in *. cbn [map fold_right]. rewrite IH by (intros; apply Hk; right; assumption).
    f_equal. unfold power_of. fold n. assert (Hlt := Hk k (or_introl eq_refl)).
    replace ((Z.of_nat k <? 0) || (Z.of_nat n <=? Z.of_nat k)) with false.
    - rewrite Nat2Z.id. reflexivity.
    - symmetry. apply orb_false_intro; [apply Z.ltb_ge; lia|apply Z.leb_gt; lia]. }
  apply Hm. intros k Hk. apply in_seq in Hk. lia.
Qed.

Lemma committee_wf_ok c : committee_wf c ->
  0 < c_total c < two62 /\ (forall s, 0 <= power_of c s) /\ (forall l, NoDup l -> sum_power c l <= c_total c).
Proof.
  intros (Hnn & Htot & Hb). split; [exact Hb|].
  assert (Hpow : forall s, 0 <= power_of c s).
  { intros s. unfold power_of. destruct (_ || _) eqn:E; [lia|]. apply orb_false_elim in E. destruct E as [E1 E2].
    apply Z.ltb_ge in E1. apply Z.leb_gt in E2. rewrite Forall_forall in Hnn. apply Hnn. apply nth_In. lia. }
  split; [exact Hpow|]. intros l Hnd.
  set (n := length (c_powers c)).
  set (inr := fun s : Z => negb ((s <? 0) || (Z.of_nat n <=? s))).
  assert (E1 : sum_power c l = sum_power c (filter inr l)).
  { unfold sum_power. clear Hnd. induction l as [|x l IH]; [reflexivity|]. cbn [filter fold_right].
    destruct (inr x) eqn:Ex; cbn [fold_right]; [rewrite IH; reflexivity|].
    rewrite IH. unfold inr in Ex. apply negb_false_iff in Ex. unfold power_of. fold n. rewrite Ex. lia. }
  rewrite E1. unfold sum_power.
  eapply Z.le_trans; [apply (sum_sub (power_of c) Hpow (filter inr l) (map Z.of_nat (seq 0 n)))|].
  - apply NoDup_filter. exact Hnd.
  - intros x Hx. apply filter_In in Hx. destruct Hx as [_ Hx]. unfold inr in Hx. apply negb_true_iff, orb_false_elim in Hx.
    destruct Hx as [H1 H2]. apply Z.ltb_ge in H1. apply Z.leb_gt in H2.
    apply in_map_iff. exists (Z.to_nat x). split; [lia|]. apply in_seq. lia.
  - rewrite Htot. apply Z.eq_le_incl, sum_power_members.
Qed.

Lemma cfg_wfb_spec c : cfg_wfb c = true -> committee_wf c.
Proof.
  unfold cfg_wfb, committee_wf, two62. intros H.
  apply andb_prop in H. destruct H as [H H4]. apply andb_prop in H. destruct H as [H H3]. apply andb_prop in H. destruct H as [H1 H2].
  apply Z.ltb_lt in H4, H3. apply Z.eqb_eq in H2. split; [|split; [exact H2|lia]].
  rewrite forallb_forall in H1. apply Forall_forall. intros x Hx. apply Z.leb_le. apply H1. exact Hx.
Qed.

