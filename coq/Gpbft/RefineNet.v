(* Refinement, the network: any number of Layer-N instances (the executable model of gpbft.instance), scheduled
   arbitrarily, fed with admissible messages, together with Byzantine members that cast arbitrary votes, produce a
   global vote history that is REACHABLE in the Layer-S transition system.  Hence the Layer-S theorems hold for
   networks of Layer-N instances: agreement and validity of the values the instances report as decided. *)
From Coq Require Import ZArith List Lia.
From F3 Require Import Instance InstanceRun InstanceOrder InstanceConverge InstanceNoPanic InstanceJust Refine RefineNode.
From F3 Require Spec SpecProofs.
Import ListNotations.
Open Scope Z_scope.

Section Net.
Variable c : config.
Variable honest : nat -> bool.
Variable input : nat -> chain.
Hypothesis Hwf : committee_wf c.
Hypothesis Hscaled : c_total c <= 65535.
Hypothesis Hinput : forall k, honest k = true -> input k <> [].

Notation SQz := (SQz c honest).
Notation reachable := (Spec.reachable (power c) (committee c) honest input).

Definition member (k : Z) : Prop := 0 <= k < Z.of_nat (nmem c) /\ honest (Z.to_nat k) = true.

Record net := mkNet { n_inst : Z -> inst; n_votes : list Spec.vote }.
Definition upd (f : Z -> inst) (k : Z) (x : inst) : Z -> inst := fun y => if y =? k then x else f y.
Definition net0 : net := mkNet (fun k => new_instance (input (Z.to_nat k)) 0) [].

Inductive action :=
| AStart (k now : Z)
| ADeliver (k now : Z) (m : msg) (sway : option chain)
| AAlarm (k now : Z) (sway : option chain)
| AByz (v : Spec.vote).

Definition node_step (n : net) (k : Z) (e : event) : net :=
  let i' := step c (clear_out (n_inst n k)) e in
  mkNet (upd (n_inst n) k i') (ovotes k (i_out i') ++ n_votes n).
Definition nstep (n : net) (a : action) : net :=
  match a with
  | AStart k now => node_step n k (EvStart now)
  | ADeliver k now m sway => node_step n k (EvDeliver now m sway)
  | AAlarm k now sway => node_step n k (EvAlarm now sway)
  | AByz v => mkNet (n_inst n) (v :: n_votes n)
  end.
(* what the environment may do: start an honest member once; deliver to a started honest member a message that is
   admissible w.r.t. the votes cast so far; fire its alarm; let a Byzantine member cast any vote *)
Definition aok (n : net) (a : action) : Prop :=
  match a with
  | AStart k _ => member k /\ i_phase (n_inst n k) = INITIAL
  | ADeliver k _ m _ => member k /\ i_phase (n_inst n k) <> INITIAL /\ adm c honest (n_votes n) m
  | AAlarm k _ _ => member k /\ i_phase (n_inst n k) <> INITIAL
  | AByz v => honest (Spec.sender v) = false
  end.
Fixpoint nrun (n : net) (acts : list action) : net :=
  match acts with [] => n | a :: rest => nrun (nstep n a) rest end.
Fixpoint all_ok (n : net) (acts : list action) : Prop :=
  match acts with [] => True | a :: rest => aok n a /\ all_ok (nstep n a) rest end.

Definition Full (i : inst) : Prop := Inv i /\ PI i /\ AllQ c i /\ JI i /\ i_err i = None.
(* every vote of member k in the global set is one of its own broadcasts, at or below its current progress point *)
Definition Own (E : list Spec.vote) (k : Z) (p0 : K) : Prop :=
  forall v, In v E -> Spec.sender v = Z.to_nat k ->
    exists r p y K, v = voteS k r p y /\ 0 <= r /\ votable p /\ okey r p K /\ kle K p0.
Definition Below (E : list Spec.vote) (k : Z) (i : inst) : Prop := Own E k (pkey i).
Definition NI (n : net) : Prop :=
  reachable (n_votes n) /\
  forall k, member k ->
    Below (n_votes n) k (n_inst n k) /\
    (i_phase (n_inst n k) = INITIAL -> n_inst n k = new_instance (input (Z.to_nat k)) 0) /\
    (i_phase (n_inst n k) <> INITIAL -> Full (n_inst n k) /\ EvI c honest input k (n_votes n) (n_inst n k)).

Lemma phS_inj p q : votable p -> votable q -> phS p = phS q -> p = q.
Proof. destruct p, q; cbn; intros; try contradiction; try reflexivity; discriminate. Qed.
Lemma voteS_inj k r p y k' r' p' y' : 0 <= k -> 0 <= k' -> 0 <= r -> 0 <= r' -> votable p -> votable p' ->
  voteS k r p y = voteS k' r' p' y' -> k = k' /\ r = r' /\ p = p'.
Proof.
  intros H1 H2 H3 H4 H5 H6 H. unfold voteS in H. injection H as E1 E2 E3 _.
  split; [lia|split; [lia|apply phS_inj; assumption]].
Qed.
Lemma ovotes_sender k outs v : In v (ovotes k outs) -> Spec.sender v = Z.to_nat k.
Proof.
  unfold ovotes. intros H. apply in_flat_map in H. destruct H as (o & _ & Ho). destruct o; cbn in Ho; try contradiction.
  destruct Ho as [<-|[]]. reflexivity.
Qed.

Lemma chain_ok_snoc p0 l o p1 : chain_ok p0 (l ++ [o]) p1 ->
  exists pm, chain_ok p0 l pm /\
    match o with
    | OBroadcast r p _ _ _ => exists K, klt pm K /\ okey r p K /\ kle K p1
    | _ => kle pm p1
    end.
Proof.
  revert p0. induction l as [|x l IH]; intros p0 H; cbn in H.
  - exists p0. split; [apply kle_refl|]. destruct o; [|exact H|exact H].
    destruct H as (K & A & B & C). exists K. split; [exact A|split; [exact B|exact C]].
  - destruct x as [r p v j t|r p|t].
    + destruct H as (K & A & B & C). destruct (IH K C) as (pm & D & F). exists pm. split; [|exact F].
      cbn. exists K. split; [exact A|split; [exact B|exact D]].
    + destruct (IH p0 H) as (pm & D & F). exists pm. split; [exact D|exact F].
    + destruct (IH p0 H) as (pm & D & F). exists pm. split; [exact D|exact F].
Qed.

Lemma Own_kle E k p0 p1 : Own E k p0 -> kle p0 p1 -> Own E k p1.
Proof.
  intros H Hle v Hv Hs. destruct (H v Hv Hs) as (r & p & y & K & A & B & C & D & F).
  exists r, p, y, K. repeat split; try assumption. eapply kle_trans; eauto.
Qed.

(* the broadcasts of one step of member k (newest first), appended one by one, keep the history reachable *)
Lemma append_step k E outs : member k ->
  log_ok c honest input k E outs ->
  forall p0 p1, chain_ok p0 (rev outs) p1 ->
  reachable E -> Own E k p0 ->
  reachable (ovotes k outs ++ E) /\ Own (ovotes k outs ++ E) k p1.
Proof.
  intros [Hk Hh]. induction outs as [|o outs IH]; intros HL p0 p1 Hc HR HB.
  - cbn in *. split; [exact HR|exact (Own_kle _ _ _ _ HB Hc)].
  - cbn [rev] in Hc. destruct (chain_ok_snoc _ _ _ _ Hc) as (pm & Hcm & Ho).
    destruct o as [r p v j t|r p|t]; cbn [log_ok] in HL.
    + destruct HL as (Hg & Hr & Hvt & _ & _ & HL'). destruct (IH HL' p0 pm Hcm HR HB) as [R1 B1].
      destruct Ho as (K & HK1 & HK2 & HK3).
      change (ovotes k (OBroadcast r p v j t :: outs) ++ E) with (voteS k r p v :: ovotes k outs ++ E). split.
      * constructor; [exact R1|]. apply Spec.step_honest; [exact Hh|exact Hg|].
        intros y Hin. destruct (B1 _ Hin eq_refl) as (r' & p' & y' & K0 & A & B & C & D & F).
        unfold voteS in A. injection A as A1 A2 _.
        assert (r' = r) by lia. assert (p' = p) by (apply phS_inj; [exact C|exact Hvt|symmetry; exact A2]). subst r' p'.
        apply (skey_fresh _ _ _ (okey_skey _ _ _ D) (okey_skey _ _ _ HK2)). eapply kle_klt_trans; eauto.
      * intros u [<-|Hu] Hs.
        -- exists r, p, v, K. repeat split; assumption.
        -- destruct (B1 u Hu Hs) as (r' & p' & y' & K0 & A & B & C & D & F). exists r', p', y', K0. repeat split; try assumption.
           eapply kle_trans; [exact F|]. right. eapply klt_kle_trans; eauto.
    + destruct (IH HL p0 pm Hcm HR HB) as [R1 B1]. split; [exact R1|exact (Own_kle _ _ _ _ B1 Ho)].
    + destruct (IH HL p0 pm Hcm HR HB) as [R1 B1]. split; [exact R1|exact (Own_kle _ _ _ _ B1 Ho)].
Qed.

Lemma adm_mono E E' m : incl E E' -> adm c honest E m -> adm c honest E' m.
Proof.
  intros Hi (A & B & C & D). split; [exact A|]. split; [exact B|]. split; [apply Hi; exact C|].
  destruct (m_phase m); try exact D.
  - destruct D as (D1 & D2 & j & D3 & D4). split; [exact D1|]. split; [exact D2|]. exists j. split; [exact D3|eapply jprev_mono; eauto].
  - destruct D as [D|(D1 & j & D3 & D4)]; [left; exact D|right]. split; [exact D1|]. exists j. split; [exact D3|eapply jprev_mono; eauto].
  - destruct D as [D|(D1 & j & D3 & D4)]; [left; exact D|right]. split; [exact D1|]. exists j. split; [exact D3|eapply jsame_mono; eauto].
  - destruct D as (D1 & D2 & j & D3 & D4 & D5). split; [exact D1|]. split; [exact D2|]. exists j. split; [exact D3|]. split; [eapply backed_mono; eauto|exact D5].
Qed.

Lemma log_emissions k E outs : member k -> log_ok c honest input k E outs ->
  forall r p v j t rank, In (OBroadcast r p v j t) outs ->
    adm c honest (ovotes k outs ++ E) (mkM k r p v rank j) /\ (v <> [] -> evid c honest input k (ovotes k outs ++ E) v).
Proof.
  intros [Hk Hh]. induction outs as [|o outs IH]; intros HL r p v j t rank Hin; [destruct Hin|].
  assert (Hinc : incl (ovotes k outs ++ E) (ovotes k (o :: outs) ++ E)).
  { intros x Hx. destruct o; cbn; try exact Hx. right. exact Hx. }
  destruct Hin as [->|Hin].
  - cbn [log_ok] in HL. destruct HL as (_ & Hr & Hvt & Haj & Hev & _).
    change (ovotes k (OBroadcast r p v j t :: outs) ++ E) with (voteS k r p v :: ovotes k outs ++ E).
    split.
    + split; [exact Hk|]. split; [exact Hr|]. split; [left; reflexivity|]. cbn [m_phase m_round m_value m_just].
      unfold admj in Haj. destruct p; try contradiction.
      * destruct Haj as (A & B & C). split; assumption.
      * destruct Haj as (A & B & jj & C & D). split; [exact A|]. split; [exact B|]. exists jj. split; [exact C|]. eapply jprev_mono; [exact Hinc|exact D].
      * destruct Haj as [(A & B)|(A & jj & C & D)]; [left; split; assumption|right]. split; [exact A|]. exists jj. split; [exact C|]. eapply jprev_mono; [exact Hinc|exact D].
      * destruct Haj as [(A & B)|(A & jj & C & D)]; [left; split; assumption|right]. split; [exact A|]. exists jj. split; [exact C|]. eapply jsame_mono; [exact Hinc|exact D].
      * destruct Haj as (A & B & jj & C & D & F). split; [exact A|]. split; [exact B|]. exists jj. split; [exact C|]. split; [|exact F]. eapply backed_mono; [exact Hinc|exact D].
    + intros Hne. eapply evid_mono; [exact Hinc|exact (Hev Hne)].
  - assert (HL' : log_ok c honest input k E outs) by (destruct o; cbn [log_ok] in HL; [apply HL|exact HL|exact HL]).
    destruct (IH HL' r p v j t rank Hin) as [A B]. split; [eapply adm_mono; eauto|intros Hne; eapply evid_mono; [exact Hinc|exact (B Hne)]].
Qed.

Lemma Full_step i e : Full i -> ev_okb e = true -> Full (step c (clear_out i) e).
Proof.
  intros (HI & HP & HA & HJ & He) Hok. destruct (committee_wf_ok c Hwf) as (Ht & Hpow & Hsum).
  exact (full_step c Ht Hsum i e HI HP HA HJ He Hok).
Qed.

Lemma Full_start inp now : Full (step c (new_instance inp 0) (EvStart now)).
Proof. exact (full_start c inp 0 now). Qed.

Lemma upd_same f k x : upd f k x k = x. Proof. unfold upd. rewrite Z.eqb_refl. reflexivity. Qed.
Lemma upd_other f k x k' : k' <> k -> upd f k x k' = f k'.
Proof. intros H. unfold upd. destruct (Z.eqb_spec k' k); [congruence|reflexivity]. Qed.

Lemma Own_other E k k' outs p0 : member k -> member k' -> k' <> k -> Own E k' p0 -> Own (ovotes k outs ++ E) k' p0.
Proof.
  intros [Hk _] [Hk' _] Hne H v Hv Hs. apply in_app_or in Hv. destruct Hv as [Hv|Hv]; [|apply H; assumption].
  exfalso. apply ovotes_sender in Hv. rewrite Hv in Hs. apply Hne. lia.
Qed.

Definition act_event (a : action) : option (Z * event) :=
  match a with
  | AStart k now => Some (k, EvStart now) | ADeliver k now m sway => Some (k, EvDeliver now m sway)
  | AAlarm k now sway => Some (k, EvAlarm now sway) | AByz _ => None
  end.

Lemma n_inst_node_step n k e k' :
  n_inst (node_step n k e) k' = if k' =? k then step c (clear_out (n_inst n k)) e else n_inst n k'.
Proof. reflexivity. Qed.

Definition node_ok (n : net) (k : Z) (e : event) : Prop :=
  Full (step c (clear_out (n_inst n k)) e) /\ Ev c honest input k (n_votes n) (step c (clear_out (n_inst n k)) e) /\
  wfe e /\ Inv (n_inst n k).

Lemma start_ok n k now : NI n -> member k -> i_phase (n_inst n k) = INITIAL -> node_ok n k (EvStart now).
Proof.
  intros [_ HN] Hk Hph. destruct (HN k Hk) as (_ & Hinit & _). unfold node_ok. rewrite (Hinit Hph).
  split; [apply Full_start|]. split; [apply Ev_started; apply Hinput; apply Hk|]. split; [exact I|apply Inv_new].
Qed.

Lemma started_ok n k e : NI n -> member k -> i_phase (n_inst n k) <> INITIAL -> adm_ev c honest (n_votes n) e -> node_ok n k e.
Proof.
  intros [_ HN] Hk Hph Hadm. destruct (HN k Hk) as (_ & _ & Hs). destruct (Hs Hph) as [HF HEI].
  pose proof (adm_ev_okb c honest (n_votes n) e Hadm) as Hok.
  split; [apply Full_step; assumption|]. split; [|split; [apply ev_okb_wfe; exact Hok|apply HF]].
  destruct HF as (HI0 & HP & HA & HJ & Herr). apply Ev_clear; try assumption. exact (conj HP (conj HA HJ)).
Qed.

Lemma aok_cases n a : NI n -> aok n a ->
  (exists k e, act_event a = Some (k, e) /\ member k /\ nstep n a = node_step n k e /\ node_ok n k e) \/
  (exists v, a = AByz v /\ honest (Spec.sender v) = false).
Proof.
  intros HNI Hok. destruct a as [k now|k now m sway|k now sway|v]; cbn [aok] in Hok; [left; eexists _, _ ..|right; eauto];
    (split; [reflexivity|]); (split; [apply Hok|]); (split; [reflexivity|]).
  - apply start_ok; [exact HNI|apply Hok..].
  - apply started_ok; [exact HNI|apply Hok..].
  - apply started_ok; [exact HNI|apply Hok..|exact I].
Qed.

Lemma NI_node_step n k e : NI n -> member k -> node_ok n k e -> NI (node_step n k e).
Proof.
  intros [HR HN] Hk (HF' & [HEI HL] & Hwfe & HInv). unfold node_step. set (i' := step c (clear_out (n_inst n k)) e) in *.
  destruct (HN k Hk) as (HB & _ & _).
  destruct (step_ordered c (clear_out (n_inst n k)) e HInv Hwfe) as ((added & Ea & Hc) & _).
  fold i' in Ea, Hc. cbn [clear_out i_out] in Ea. rewrite app_nil_r in Ea. subst added.
  destruct (append_step k (n_votes n) (i_out i') Hk HL _ _ Hc HR HB) as [R' B'].
  split; [exact R'|]. intros k' Hk'. cbn [n_inst n_votes].
  destruct (Z.eq_dec k' k) as [->|Hne].
  - rewrite upd_same. split; [exact B'|]. split.
    + intros Hph. exfalso. destruct HF' as (_ & HP & _). apply HP. exact Hph.
    + intros _. split; [exact HF'|exact HEI].
  - rewrite upd_other by exact Hne. destruct (HN k' Hk') as (HB' & HI' & HS'). split; [apply Own_other; assumption|]. split; [exact HI'|].
    intros Hph. destruct (HS' Hph) as [F' E']. split; [exact F'|]. eapply EvI_mono; [|exact E']. apply incl_appr, incl_refl.
Qed.

Theorem NI_step n a : NI n -> aok n a -> NI (nstep n a).
Proof.
  intros HNI Hok. destruct (aok_cases n a HNI Hok) as [(k & e & _ & Hk & -> & Hn)|(v & -> & Hv)].
  - apply NI_node_step; assumption.
  - destruct HNI as [HR HN]. split; [constructor; [exact HR|apply Spec.step_byz; exact Hv]|].
    intros k Hk. destruct (HN k Hk) as (HB & HI & HS). cbn [nstep n_inst n_votes]. split; [|split; [exact HI|]].
    + intros u [<-|Hu] Hsd; [exfalso; destruct Hk as [_ Hh]; rewrite Hsd in Hv; congruence|apply HB; assumption].
    + intros Hph. destruct (HS Hph) as [F E]. split; [exact F|]. eapply EvI_mono; [|exact E]. intros x Hx. right. exact Hx.
Qed.

Lemma NI_net0 : NI net0.
Proof.
  split; [constructor|]. intros k Hk. cbn. split; [intros v []|]. split; [reflexivity|]. intros H. exfalso. apply H. reflexivity.
Qed.

(* P may speak of the actions still to come *)
Lemma nrun_ind (P : net -> list action -> Prop) :
  (forall n a rest, NI n -> aok n a -> P n (a :: rest) -> P (nstep n a) rest) ->
  forall acts n, NI n -> all_ok n acts -> P n acts -> NI (nrun n acts) /\ P (nrun n acts) [].
Proof.
  intros Hstep. induction acts as [|a rest IH]; intros n HN Hok HP; [split; assumption|]. destruct Hok as [Ha Hr]. cbn.
  apply IH; [apply NI_step; assumption|exact Hr|apply Hstep; assumption].
Qed.

Theorem NI_run acts : forall n, NI n -> all_ok n acts -> NI (nrun n acts).
Proof. intros n HN Hok. apply (nrun_ind (fun _ _ => True)); auto. Qed.

(* C01/C02, refinement: every execution of a network of Layer-N instances is an execution of the Layer-S protocol *)
Theorem network_refines_spec acts : all_ok net0 acts -> reachable (n_votes (nrun net0 acts)).
Proof. intros H. apply (NI_run acts net0 NI_net0 H). Qed.

(* every message an honest member emits is acceptable to its peers (admissible w.r.t. the votes cast so far, hence
   deliverable to anybody at any later time) and is for a value it has evidence for *)
Theorem network_emissions acts a k e : all_ok net0 acts -> aok (nrun net0 acts) a -> act_event a = Some (k, e) ->
  forall r p v j t rank, In (OBroadcast r p v j t) (i_out (n_inst (nstep (nrun net0 acts) a) k)) ->
    adm c honest (n_votes (nstep (nrun net0 acts) a)) (mkM k r p v rank j) /\
    (v <> [] -> evid c honest input k (n_votes (nstep (nrun net0 acts) a)) v).
Proof.
  intros Hok Ha He r p v j t rank Hin. pose proof (NI_run acts net0 NI_net0 Hok) as HNI.
  destruct (aok_cases _ a HNI Ha) as [(k' & e' & Ha' & Hk & Hst & _ & [_ HL] & _)|(v0 & -> & _)]; [|discriminate He].
  rewrite He in Ha'. injection Ha' as <- <-. rewrite Hst in *. rewrite n_inst_node_step, Z.eqb_refl in Hin.
  apply (log_emissions k (n_votes (nrun net0 acts)) _ Hk HL r p v j t rank Hin).
Qed.

(* what an instance reports as decided is backed by a strong quorum of DECIDE votes in the global set *)
Definition TI (n : net) : Prop :=
  forall k, member k -> forall j, i_term (n_inst n k) = Some j -> SQz (n_votes n) 0 DECIDE (j_value j).

Lemma TI_node_step n k e : NI n -> TI n -> member k -> node_ok n k e -> TI (node_step n k e).
Proof.
  intros HNI HT Hk Hn k' Hk' j Hj. pose proof (NI_node_step n k e HNI Hk Hn) as [_ HN'].
  destruct Hn as ((_ & (_ & _ & _ & Hph') & _) & _ & Hwfe & HInv). unfold node_step in *. cbn [n_inst n_votes] in *.
  destruct (Z.eq_dec k' k) as [->|Hne].
  - rewrite upd_same in Hj. set (i' := step c (clear_out (n_inst n k)) e) in *.
    destruct (step_ordered c (clear_out (n_inst n k)) e HInv Hwfe) as (_ & _ & _ & _ & (_ & HTm)). fold i' in HTm.
    destruct HTm as [Eq|(v & sg & Eq & Fv & Ff)].
    + change (i_term (clear_out (n_inst n k))) with (i_term (n_inst n k)) in Eq. rewrite Eq in Hj.
      eapply SQz_mono; [|apply (HT k Hk j Hj)]. apply incl_appr, incl_refl.
    + rewrite Eq in Hj. injection Hj as <-. cbn [j_value build_just].
      destruct (HN' k Hk) as (_ & _ & HS'). cbn [n_inst n_votes] in HS'. rewrite upd_same in HS'.
      destruct (HS' Hph') as [(_ & _ & HA & _) [HC _]].
      destruct (find_sq_for_inv c _ _ _ Ff) as (s0 & Hs0 & Hsq0).
      apply (local_SQ c honest Hwf _ 0 DECIDE (i_decision i') v s0); [apply HA|apply HC|exact Hs0|exact Hsq0].
  - rewrite upd_other in Hj by exact Hne. eapply SQz_mono; [|apply (HT k' Hk' j Hj)]. apply incl_appr, incl_refl.
Qed.

Theorem TI_step n a : NI n -> TI n -> aok n a -> TI (nstep n a).
Proof.
  intros HNI HT Hok. destruct (aok_cases n a HNI Hok) as [(k & e & _ & Hk & -> & Hn)|(v & -> & _)].
  - apply TI_node_step; assumption.
  - intros k Hk j Hj. eapply SQz_mono; [|apply (HT k Hk j Hj)]. intros x Hx. right. exact Hx.
Qed.

Lemma TI_net0 : TI net0. Proof. intros k Hk j Hj. cbn in Hj. discriminate Hj. Qed.

Lemma NTI_run acts : forall n, NI n -> TI n -> all_ok n acts -> NI (nrun n acts) /\ TI (nrun n acts).
Proof. intros n HN HT Hok. apply (nrun_ind (fun n _ => TI n)); auto. intros; apply TI_step; assumption. Qed.

(* Byzantine members hold less than a third of the power *)
Hypothesis Hbyz : 3 * Spec.byz_power (power c) (committee c) honest < Spec.total (power c) (committee c).

Lemma power_nonneg x : 0 <= power c x.
Proof. destruct (committee_wf_ok c Hwf) as (_ & Hpow & _). apply Hpow. Qed.
Lemma committee_nodup : NoDup (committee c). Proof. apply seq_NoDup. Qed.

Lemma decided_value acts k j : all_ok net0 acts -> member k -> i_term (n_inst (nrun net0 acts) k) = Some j ->
  j_value j <> [] /\ Spec.decides (power c) (committee c) honest (n_votes (nrun net0 acts)) (j_value j).
Proof.
  intros Hok Hk Hj. destruct (NTI_run acts net0 NI_net0 TI_net0 Hok) as [[HR _] HT].
  pose proof (HT k Hk j Hj) as Hsq. unfold Refine.SQz in Hsq. cbn in Hsq.
  destruct (j_value j) as [|x v] eqn:Ev; [exfalso|split; [discriminate|exact Hsq]].
  pose proof (SpecProofs.reachable_inv (power c) (committee c) honest input _ HR) as HInv.
  destruct (SpecProofs.sq_guard (power c) power_nonneg (committee c) honest input Hbyz _ HInv _ _ _ Hsq) as (s & _ & _ & G). exact G.
Qed.

(* C01 on networks of Layer-N instances: no two honest members report different decisions *)
Theorem network_agreement acts k1 k2 j1 j2 : all_ok net0 acts -> member k1 -> member k2 ->
  i_term (n_inst (nrun net0 acts) k1) = Some j1 -> i_term (n_inst (nrun net0 acts) k2) = Some j2 ->
  j_value j1 = j_value j2.
Proof.
  intros Hok H1 H2 E1 E2. destruct (decided_value acts k1 j1 Hok H1 E1) as [_ D1]. destruct (decided_value acts k2 j2 Hok H2 E2) as [_ D2].
  exact (SpecProofs.agreement (power c) power_nonneg (committee c) honest input Hbyz _ _ _ (network_refines_spec acts Hok) D1 D2).
Qed.

(* C02 on networks of Layer-N instances: a reported decision is a non-empty prefix of the input of some honest member *)
Theorem network_validity acts k j : all_ok net0 acts -> member k -> i_term (n_inst (nrun net0 acts) k) = Some j ->
  j_value j <> [] /\ exists q, honest q = true /\ Spec.is_prefix (j_value j) (input q).
Proof.
  intros Hok Hk Hj. destruct (decided_value acts k j Hok Hk Hj) as [Hne D]. split; [exact Hne|].
  destruct (SpecProofs.validity (power c) power_nonneg (committee c) honest input Hbyz _ _ (network_refines_spec acts Hok) D) as [_ H]. exact H.
Qed.

(* an honest member never casts two different votes in the same (round, step) -- over the WHOLE network history *)
Theorem network_one_vote_per_slot acts s r p x y : all_ok net0 acts -> honest s = true ->
  In (Spec.V s r p x) (n_votes (nrun net0 acts)) -> In (Spec.V s r p y) (n_votes (nrun net0 acts)) -> x = y.
Proof.
  intros Hok Hs Hx Hy. destruct (SpecProofs.reachable_inv _ _ _ _ _ (network_refines_spec acts Hok)) as [_ Hu].
  exact (Hu s r p x y Hs Hx Hy).
Qed.

(* the COMMIT lock, the heart of GossiPBFT's safety: once a strong quorum has committed v0 in round r0, from that round on
   the only value that can gather a strong PREPARE quorum is v0, and bottom can never gather a strong COMMIT quorum *)
Theorem network_commit_lock acts r0 v0 r : all_ok net0 acts ->
  Spec.SQ (power c) (committee c) honest (n_votes (nrun net0 acts)) r0 Spec.COMMIT (Some v0) -> (r0 <= r)%nat ->
  (forall x, Spec.SQ (power c) (committee c) honest (n_votes (nrun net0 acts)) r Spec.PREPARE x -> x = Some v0) /\
  ~ Spec.SQ (power c) (committee c) honest (n_votes (nrun net0 acts)) r Spec.COMMIT None.
Proof.
  intros Hok Hc Hr. pose proof (SpecProofs.reachable_inv _ _ _ _ _ (network_refines_spec acts Hok)) as HInv.
  exact (SpecProofs.lock_all (power c) power_nonneg (committee c) honest input Hbyz _ HInv r0 v0 Hc r Hr).
Qed.

End Net.
