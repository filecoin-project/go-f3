(* Layer N, protocol discipline (C07), values voted for: WHAT a participant votes for is determined by what it has received.
   Decision-point theorems about tryQuality and tryConverge (those about skipToRound and tryPrepare are proved in
   Properties/C07.v): they hold for EVERY state the function is entered in.  (That these functions are the only emitters of the respective votes is visible in
   Instance.v: begin_prepare is called by try_quality and try_converge only, begin_commit by try_prepare only.) *)
From Coq Require Import ZArith List Bool Lia.
From F3 Require Import Instance InstanceOrder.
Import ListNotations.
Open Scope Z_scope.

Definition is_prefix (p v : chain) : Prop := exists t, v = p ++ t.

Lemma prefixes_from_map acc rest :
  prefixes_from acc rest = map (fun n => acc ++ firstn n rest) (seq 1 (length rest)).
Proof.
  revert acc; induction rest as [|x r IH]; intros acc; [reflexivity|].
  cbn [prefixes_from length]. rewrite IH. cbn [seq map firstn]. f_equal.
  rewrite <- (seq_shift (length r) 1), map_map. apply map_ext. intros n. cbn [firstn]. rewrite <- app_assoc. reflexivity.
Qed.
Lemma all_prefixes_map v : all_prefixes v = map (fun n => firstn (S n) v) (seq 1 (length v - 1)).
Proof.
  destruct v as [|b r]; [reflexivity|]. unfold all_prefixes. rewrite prefixes_from_map.
  cbn [length]. replace (S (length r) - 1)%nat with (length r) by lia. apply map_ext. intros n. reflexivity.
Qed.
Lemma In_all_prefixes p v : In p (all_prefixes v) <-> exists n, (2 <= n <= length v)%nat /\ p = firstn n v.
Proof.
  rewrite all_prefixes_map, in_map_iff. split.
  - intros (n & <- & Hn). apply in_seq in Hn. exists (S n). split; [lia|reflexivity].
  - intros (n & Hn & ->). exists (n - 1)%nat. split; [f_equal; lia|apply in_seq; lia].
Qed.
Lemma firstn_is_prefix n (v : chain) : is_prefix (firstn n v) v.
Proof. exists (skipn n v). symmetry. apply firstn_skipn. Qed.
Lemma is_prefix_firstn p (v : chain) : is_prefix p v -> p = firstn (length p) v.
Proof. intros [t ->]. rewrite firstn_app, firstn_all, Nat.sub_diag. cbn. rewrite app_nil_r. reflexivity. Qed.

(* scanning the prefixes from the longest down, the first hit is the longest hit *)
Lemma first_hit_down (f : chain -> bool) (g : nat -> chain) k :
  match filter f (rev (map g (seq 1 k))) with
  | p :: _ => exists n, (1 <= n <= k)%nat /\ p = g n /\ f p = true /\ forall n', (n < n' <= k)%nat -> f (g n') = false
  | [] => forall n', (1 <= n' <= k)%nat -> f (g n') = false
  end.
Proof.
  induction k as [|k IH]; [cbn; intros; lia|].
  rewrite seq_S, map_app, rev_app_distr. cbn [map rev app filter].
  destruct (f (g (1 + k)%nat)) eqn:E.
  - exists (S k). repeat split; [lia|lia|exact E|intros; lia].
  - destruct (filter f (rev (map g (seq 1 k)))) as [|p l].
    + intros n' Hn. destruct (Nat.eq_dec n' (S k)) as [->|Hne]; [exact E|apply IH; lia].
    + destruct IH as (n & Hn & Hp & Hf & Hl). exists n. repeat split; try assumption; try lia.
      intros n' Hn'. destruct (Nat.eq_dec n' (S k)) as [->|Hne]; [exact E|apply Hl; lia].
Qed.

(* FindStrongQuorumValueForLongestPrefixOf: the longest prefix (beyond the base) with a strong quorum, else the base *)
Theorem q_longest_prefix_spec q v :
  let p := q_longest_prefix q v in
  is_prefix p v /\
  ((2 <= length p)%nat -> q_has_sq q p = true) /\
  (forall p', is_prefix p' v -> (length p < length p')%nat -> (2 <= length p')%nat -> q_has_sq q p' = false) /\
  (v <> [] -> (1 <= length p)%nat).
Proof.
  cbv zeta. unfold q_longest_prefix. rewrite all_prefixes_map.
  pose proof (first_hit_down (q_has_sq q) (fun n => firstn (S n) v) (length v - 1)) as H. cbv beta in H.
  match goal with |- context [filter ?f ?l] => set (F := filter f l) in * end.
  change (filter _ _) with F in H.
  destruct F as [|p l].
  - repeat split.
    + apply firstn_is_prefix.
    + intros H2. rewrite firstn_length in H2. lia.
    + intros p' Hp' Hl H2. rewrite (is_prefix_firstn _ _ Hp').
      assert (Hlen : (length p' <= length v)%nat). { destruct Hp' as [t ->]. rewrite app_length. lia. }
      replace (length p') with (S (length p' - 1)) by lia. apply H. lia.
    + intros Hv. rewrite firstn_length. destruct v; [congruence|cbn; lia].
  - destruct H as (n & Hn & -> & Hf & Hl). repeat split.
    + apply firstn_is_prefix.
    + intros _. exact Hf.
    + intros p' Hp' Hlt H2. rewrite (is_prefix_firstn _ _ Hp').
      assert (Hlen : (length p' <= length v)%nat). { destruct Hp' as [t ->]. rewrite app_length. lia. }
      rewrite firstn_length in Hlt.
      replace (length p') with (S (length p' - 1)) by lia. apply Hl. lia.
    + intros _. rewrite firstn_length. lia.
Qed.


Lemma longest_prefix_short q v : (length (q_longest_prefix q v) < 2)%nat -> q_longest_prefix q v = firstn 1 v.
Proof.
  intros Hl. destruct (q_longest_prefix_spec q v) as (Hp & _ & _ & Hne). cbv zeta in *.
  rewrite (is_prefix_firstn _ _ Hp). destruct v as [|b r].
  - destruct (length _); reflexivity.
  - specialize (Hne ltac:(discriminate)). replace (length (q_longest_prefix q (b :: r))) with 1%nat by lia. reflexivity.
Qed.
Lemma settle_In i l : In (firstn 1 (i_input i)) (i_cands i) -> incl (i_cands i) l ->
  (forall p, In p (all_prefixes (qlp i)) -> In p l) -> In (qlp i) l.
Proof.
  intros Hb A B. destruct (Nat.le_gt_cases 2 (length (qlp i))) as [H2|H2].
  - apply B. apply In_all_prefixes. exists (length (qlp i)). split; [lia|symmetry; apply firstn_all].
  - apply A. unfold qlp in *. rewrite longest_prefix_short; [exact Hb|exact H2].
Qed.

(* the round-0 PREPARE value is the longest prefix of the input with a strong QUALITY quorum (the base if none), and
   every prefix of it becomes a candidate *)
Theorem try_quality_spec c i :
  let p := q_longest_prefix (i_quality i) (i_input i) in
  let i' := try_quality c i in
  if q_has_sq (i_quality i) (i_proposal i) || phase_timeout_elapsed i then
    i_out i' = OBroadcast (i_round i) PREPARE p None false :: OAlarm (i_now i + nthZ (c_timeouts c) (i_round i)) :: i_out i /\
    i_proposal i' = p /\ i_value i' = p /\ i_phase i' = PREPARE /\ i_round i' = i_round i /\
    (forall p', In p' (all_prefixes p) -> is_candidate i' p' = true)
  else i' = i.
Proof.
  cbv zeta. unfold try_quality. fold (qlp i). fold (settle i). destruct (_ || _); [|reflexivity].
  destruct (settle_nf i) as (l & _ & B & -> & _). repeat split. intros p' Hp'. apply is_candidate_In, B, Hp'.
Qed.


(* rank order on option Z (None = +Inf) *)
Definition rle (a b : option Z) : Prop := match a, b with _, None => True | Some x, Some y => x <= y | None, Some _ => False end.
Lemma better_spec best v : better best v = true <-> best = None \/ exists b, best = Some b /\ ~ rle (cv_rank b) (cv_rank v).
Proof.
  unfold better. destruct best as [b|]; [|split; auto].
  split.
  - intros H. right. exists b. split; [reflexivity|]. unfold rle.
    destruct (cv_rank v) as [x|], (cv_rank b) as [y|]; try discriminate H; try (apply Z.ltb_lt in H; lia); tauto.
  - intros [H|(b0 & E & H)]; [discriminate H|]. injection E as <-. unfold rle in H.
    destruct (cv_rank v) as [x|], (cv_rank b) as [y|]; try tauto; try (apply Z.ltb_lt; lia); reflexivity.
Qed.

(* FindBestTicketProposal: if the best ticket overall passes the filter, it is also the best ticket among the filtered *)
Lemma find_best_filter (f : cvalue -> bool) l :
  forall b1 b2 w,
  (forall x, b1 = Some x -> f x = true -> b2 = Some x) ->
  (b1 = None -> b2 = None) ->
  (forall x y, b1 = Some x -> b2 = Some y -> rle (cv_rank x) (cv_rank y)) ->
  fold_left (fun best v => if better best v && true then Some v else best) l b1 = Some w -> f w = true ->
  fold_left (fun best v => if better best v && f v then Some v else best) l b2 = Some w.
Proof.
  induction l as [|v l IH]; intros b1 b2 w H1 H2 H3 Hr Hf; cbn [fold_left] in *.
  - apply H1; assumption.
  - rewrite andb_true_r in Hr. eapply IH; [| | |exact Hr|exact Hf].
    + intros x Ex Hfx. destruct (better b1 v) eqn:B1.
      * injection Ex as Ex'. subst x. rewrite Hfx, andb_true_r.
        assert (B2 : better b2 v = true).
        { apply better_spec. destruct b2 as [y|]; [right|left; reflexivity]. exists y. split; [reflexivity|].
          apply better_spec in B1. destruct B1 as [->|(b & -> & Hb)]; [discriminate (H2 eq_refl)|].
          specialize (H3 b y eq_refl eq_refl). intros Hy. apply Hb. unfold rle in *.
          destruct (cv_rank b), (cv_rank y), (cv_rank v); try tauto; lia. }
        rewrite B2. reflexivity.
      * rewrite (H1 x Ex Hfx). subst b1. rewrite B1. reflexivity.
    + intros E. destruct (better b1 v) eqn:B1; [discriminate E|]. subst b1. cbn in B1. discriminate B1.
    + intros x y Ex Ey. destruct (better b1 v) eqn:B1.
      * injection Ex as Ex'. subst x. destruct (better b2 v && f v); [injection Ey as Ey'; subst y; unfold rle; destruct (cv_rank v); [lia|exact I]|].
        apply better_spec in B1. destruct B1 as [->|(b & -> & Hb)].
        { rewrite (H2 eq_refl) in Ey. discriminate Ey. }
        specialize (H3 b y eq_refl Ey). unfold rle in *. destruct (cv_rank b), (cv_rank y), (cv_rank v); try tauto; lia.
      * destruct (better b2 v && f v) eqn:B2.
        -- injection Ey as Ey'. subst y. subst b1. destruct (better_spec (Some x) v) as [_ Hb].
           destruct (cv_rank x) as [rx|] eqn:Erx, (cv_rank v) as [rv|] eqn:Erv; unfold rle; try exact I; try lia.
           ++ destruct (Z.le_gt_cases rx rv) as [Hle|Hgt]; [exact Hle|]. rewrite Hb in B1; [discriminate B1|].
              right. exists x. split; [reflexivity|]. unfold rle. try rewrite Erx. try rewrite Erv. lia.
           ++ rewrite Hb in B1; [discriminate B1|]. right. exists x. split; [reflexivity|]. unfold rle. try rewrite Erx. try rewrite Erv. tauto.
        -- apply H3; assumption.
Qed.

(* in later rounds the participant adopts the best-ticket CONVERGE value whenever that value is a candidate -- in
   particular whenever it is a prefix of the proposal formed from QUALITY (try_quality_spec + candidates_monotone) *)
Theorem try_converge_adopts_best c i w :
  phase_timeout_elapsed i = true ->
  c_find_best (r_conv (get_round i (i_round i))) (fun _ => true) = Some w ->
  is_candidate i (cv_chain w) = true ->
  let i' := try_converge c i in
  i_proposal i' = cv_chain w /\ i_value i' = cv_chain w /\ i_phase i' = PREPARE /\
  i_out i' = OBroadcast (i_round i) PREPARE (cv_chain w) (Some (cv_just w)) false :: OAlarm (i_now i + nthZ (c_timeouts c) (i_round i)) :: i_out i.
Proof.
  intros Ht Hb Hc. cbv zeta.
  assert (E : c_find_best (r_conv (get_round i (i_round i))) (conv_valid c i) = Some w).
  { unfold c_find_best. eapply (find_best_filter (conv_valid c i)); [| | |exact Hb|unfold conv_valid; rewrite Hc; reflexivity]; intros; congruence. }
  apply try_converge_cases; intros; try congruence.
  rewrite E in H. injection H as <-. repeat split.
Qed.


