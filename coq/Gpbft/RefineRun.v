(* Refinement, executable side: a boolean checker for the admissibility of a network schedule (sound w.r.t. RefineNet.all_ok),
   and a scheduler that lets the model instances talk to each other.  Used for non-vacuity (a concrete network run that
   satisfies the hypotheses of the network theorems and ends in decisions) and by the harness to replay real multi-node
   executions as Layer-N network schedules. *)
From Coq Require Import ZArith List Bool.
From F3 Require Import Instance InstanceRun InstanceOrder InstanceNoPanic Refine RefineNode RefineNet.

Import ListNotations.
Open Scope Z_scope.

Section Run.
Variable c : config.
Variable honest : nat -> bool.
Variable input : nat -> chain.

Definition sqzb (E : list Spec.vote) (r : Z) (p : phase) (v : chain) : bool :=
  Spec.sqb (power c) (committee c) honest E (Z.to_nat r) (phS p) (valS v).
Definition backedb (E : list Spec.vote) (j : just) : bool := (0 <=? j_round j) && sqzb E (j_round j) (j_phase j) (j_value j).
Definition jprevb (E : list Spec.vote) (r : Z) (v : chain) (j : just) : bool :=
  backedb E j && (j_round j =? r - 1) &&
  ((phase_eqb (j_phase j) PREPARE && chain_eqb (j_value j) v) || (phase_eqb (j_phase j) COMMIT && is_zero (j_value j))).
Definition jsameb (E : list Spec.vote) (r : Z) (v : chain) (j : just) : bool :=
  backedb E j && (j_round j =? r) && phase_eqb (j_phase j) PREPARE && chain_eqb (j_value j) v.
Definition admb (E : list Spec.vote) (m : msg) : bool :=
  (0 <=? m_sender m) && (m_sender m <? Z.of_nat (nmem c)) && (0 <=? m_round m) &&
  Spec.has_vote E (voteS (m_sender m) (m_round m) (m_phase m) (m_value m)) &&
  match m_phase m with
  | QUALITY => (m_round m =? 0) && negb (is_zero (m_value m))
  | CONVERGE => (1 <=? m_round m) && negb (is_zero (m_value m)) && match m_just m with Some j => jprevb E (m_round m) (m_value m) j | None => false end
  | PREPARE => match m_just m with
               | None => m_round m =? 0
               | Some j => (1 <=? m_round m) && jprevb E (m_round m) (m_value m) j
               end
  | COMMIT => match m_just m with
              | None => is_zero (m_value m)
              | Some j => negb (is_zero (m_value m)) && jsameb E (m_round m) (m_value m) j
              end
  | DECIDE => (m_round m =? 0) && negb (is_zero (m_value m)) &&
              match m_just m with Some j => backedb E j && phase_eqb (j_phase j) COMMIT && chain_eqb (j_value j) (m_value m) | None => false end
  | _ => false
  end.
Definition memberb (k : Z) : bool := (0 <=? k) && (k <? Z.of_nat (nmem c)) && honest (Z.to_nat k).
Definition startedb (i : inst) : bool := negb (phase_eqb (i_phase i) INITIAL).
Definition aokb (n : net) (a : action) : bool :=
  match a with
  | AStart k _ => memberb k && negb (startedb (n_inst n k))
  | ADeliver k _ m _ => memberb k && startedb (n_inst n k) && admb (n_votes n) m
  | AAlarm k _ _ => memberb k && startedb (n_inst n k)
  | AByz v => negb (honest (Spec.sender v))
  end.
Fixpoint all_okb (n : net) (acts : list action) : bool :=
  match acts with [] => true | a :: rest => aokb n a && all_okb (nstep c n a) rest end.

Hypothesis Hwf : committee_wf c.

Lemma is_zero_false v : negb (is_zero v) = true <-> v <> [].
Proof. destruct v; cbn; split; congruence. Qed.
Lemma is_zero_true v : is_zero v = true <-> v = [].
Proof. destruct v; cbn; split; congruence. Qed.
Lemma sqzb_sound E r p v : sqzb E r p v = true -> SQz c honest E r p v.
Proof. unfold sqzb, Refine.SQz. intros H. eapply SpecProofs.sqb_sound; [apply seq_NoDup|exact H]. Qed.
Lemma backedb_sound E j : backedb E j = true -> backed c honest E j.
Proof. unfold backedb. rewrite andb_true_iff, Z.leb_le. intros [H1 H2]. split; [exact H1|apply sqzb_sound; exact H2]. Qed.
Lemma jprevb_sound E r v j : jprevb E r v j = true -> jprev c honest E r v j.
Proof.
  unfold jprevb. rewrite !andb_true_iff, orb_true_iff, !andb_true_iff, Z.eqb_eq, !phase_eqb_true, chain_eqb_eq, is_zero_true.
  intros [[H1 H2] H3]. split; [apply backedb_sound; exact H1|]. split; assumption.
Qed.
Lemma jsameb_sound E r v j : jsameb E r v j = true -> jsame c honest E r v j.
Proof.
  unfold jsameb. rewrite !andb_true_iff, Z.eqb_eq, phase_eqb_true, chain_eqb_eq.
  intros [[[H1 H2] H3] H4]. split; [apply backedb_sound; exact H1|]. split; [exact H2|]. split; assumption.
Qed.

Lemma admb_sound E m : admb E m = true -> adm c honest E m.
Proof.
  unfold admb, adm. rewrite !andb_true_iff, !Z.leb_le, Z.ltb_lt. intros [[[[Hs1 Hs2] Hr] Hv] Hsh].
  split; [split; assumption|]. split; [exact Hr|]. split; [apply SpecProofs.has_vote_in; exact Hv|].
  destruct (m_phase m); try discriminate Hsh; revert Hsh.
  - rewrite andb_true_iff, Z.eqb_eq, is_zero_false. auto.
  - destruct (m_just m) as [j|]; rewrite !andb_true_iff, Z.leb_le, is_zero_false; intros [[A B] C]; [|discriminate C].
    split; [exact A|]. split; [exact B|]. exists j. split; [reflexivity|apply jprevb_sound; exact C].
  - destruct (m_just m) as [j|].
    + rewrite andb_true_iff, Z.leb_le. intros [A B]. right. split; [exact A|]. exists j. split; [reflexivity|apply jprevb_sound; exact B].
    + rewrite Z.eqb_eq. auto.
  - destruct (m_just m) as [j|].
    + rewrite andb_true_iff, is_zero_false. intros [A B]. right. split; [exact A|]. exists j. split; [reflexivity|apply jsameb_sound; exact B].
    + rewrite is_zero_true. auto.
  - destruct (m_just m) as [j|]; rewrite !andb_true_iff, Z.eqb_eq, is_zero_false; [|intros [_ C]; discriminate C].
    rewrite phase_eqb_true, chain_eqb_eq. intros [[A B] [[C1 C2] C3]].
    split; [exact A|]. split; [exact B|]. exists j. split; [reflexivity|]. split; [apply backedb_sound; exact C1|]. split; assumption.
Qed.

Lemma memberb_sound k : memberb k = true -> member c honest k.
Proof. unfold memberb, member. rewrite !andb_true_iff, Z.leb_le, Z.ltb_lt. intros [[H1 H2] H3]. split; [split; assumption|exact H3]. Qed.
Lemma startedb_true i : startedb i = true <-> i_phase i <> INITIAL.
Proof. unfold startedb. rewrite negb_true_iff. apply phase_eqb_false. Qed.
Lemma startedb_false i : negb (startedb i) = true <-> i_phase i = INITIAL.
Proof. unfold startedb. rewrite negb_involutive. apply phase_eqb_true. Qed.

Lemma aokb_sound n a : aokb n a = true -> aok c honest n a.
Proof.
  destruct a as [k now|k now m sway|k now sway|v]; cbn; rewrite ?andb_true_iff, ?startedb_true, ?startedb_false, ?negb_true_iff.
  - intros [A B]. split; [apply memberb_sound; exact A|exact B].
  - intros [[A B] C]. split; [apply memberb_sound; exact A|]. split; [exact B|apply admb_sound; exact C].
  - intros [A B]. split; [apply memberb_sound; exact A|exact B].
  - auto.
Qed.
Theorem all_okb_sound acts : forall n, all_okb n acts = true -> all_ok c honest n acts.
Proof.
  induction acts as [|a rest IH]; intros n H; [exact I|]. cbn in H. apply andb_prop in H. destruct H as [A B].
  split; [apply aokb_sound; exact A|apply IH; exact B].
Qed.

(* a scheduler: every broadcast is delivered to every member, first in first out *)
Definition out_msgs (k : Z) (outs : list out) : list msg :=   (* oldest first *)
  flat_map (fun o => match o with OBroadcast r p v j _ => [mkM k r p v (k + 1) j] | _ => [] end) (rev outs).
Fixpoint deliver_all (n : net) (now : Z) (m : msg) (ks : list Z) (acc : list action) (queue : list msg) : net * list action * list msg :=
  match ks with
  | [] => (n, acc, queue)
  | k :: rest =>
      let a := ADeliver k now m None in
      let n' := nstep c n a in
      deliver_all n' now m rest (acc ++ [a]) (queue ++ out_msgs k (i_out (n_inst n' k)))
  end.
Fixpoint alarm_all (n : net) (now : Z) (ks : list Z) (acc : list action) (queue : list msg) : net * list action * list msg :=
  match ks with
  | [] => (n, acc, queue)
  | k :: rest =>
      let a := AAlarm k now None in
      let n' := nstep c n a in
      alarm_all n' now rest (acc ++ [a]) (queue ++ out_msgs k (i_out (n_inst n' k)))
  end.
(* when nothing is in flight, time jumps ahead and every member's alarm fires *)
Fixpoint pump (fuel : nat) (n : net) (now : Z) (ks : list Z) (acc : list action) (queue : list msg) : net * list action :=
  match fuel with
  | O => (n, acc)
  | S f => match queue with
           | [] => let '(n', acc', q') := alarm_all n (now + 100000) ks acc [] in pump f n' (now + 100001) ks acc' q'
           | m :: q => let '(n', acc', q') := deliver_all n now m ks acc q in pump f n' (now + 1) ks acc' q'
           end
  end.
Fixpoint start_all (n : net) (ks : list Z) (acc : list action) (queue : list msg) : net * list action * list msg :=
  match ks with
  | [] => (n, acc, queue)
  | k :: rest => let a := AStart k 0 in let n' := nstep c n a in
                 start_all n' rest (acc ++ [a]) (queue ++ out_msgs k (i_out (n_inst n' k)))
  end.
(* `pre`: actions performed first (e.g. Byzantine votes); `extra`: messages put in front of the queue (e.g. Byzantine messages) *)
Definition auto_actions_from (pre : list action) (extra : list msg) (ks : list Z) (fuel : nat) : list action :=
  let '(n, acc, q) := start_all (nrun c (net0 input) pre) ks pre [] in snd (pump fuel n 1 ks acc (extra ++ q)).
Definition auto_actions (ks : list Z) (fuel : nat) : list action := auto_actions_from [] [] ks fuel.

End Run.

(* a real multi-node execution as a schedule of the network model *)
(* final observation of a member: (index, decided value?, round, phase code) *)
Definition net_final_ok (n : net) (finals : list (Z * option chain * Z * Z)) : bool :=
  forallb (fun f => let '(k, dec, rd, ph) := f in
             let i := n_inst n k in
             match dec, i_term i with
             | Some v, Some j => chain_eqb (j_value j) v
             | None, None => (i_round i =? rd) && (phase_code (i_phase i) =? ph)
             | _, _ => false
             end) finals.
Definition net_trace_ok (c : config) (honest : list bool) (inputs : list chain) (acts : list action) (finals : list (Z * option chain * Z * Z)) : bool :=
  let h := fun n => nth n honest false in
  let inp := fun n => nth n inputs [] in
  cfg_wfb c && (c_total c <=? 65535) &&
  (3 * Spec.byz_power (power c) (committee c) h <? Spec.total (power c) (committee c)) &&
  forallb (fun k => implb (nth k honest false) (negb (is_zero (nth k inputs [])))) (seq 0 (length honest)) &&
  all_okb c h (net0 inp) acts && net_final_ok (nrun c (net0 inp) acts) finals.
