(* On a happy instance each try* function has a normal form (move on iff the tally of the step holds a strong quorum),
   each begin* function is one hmove, and receive_one records the vote and re-examines the current step. *)
From Coq Require Import ZArith List Bool.
From F3 Require Import QuorumGen Instance InstanceOrder InstanceNoPanic HappyPath HappyInst.
Import ListNotations.
Open Scope Z_scope.

Ltac proj := cbn [i_input i_proposal i_value i_cands i_quality i_rounds i_decision i_round i_phase i_ptimeout i_rtimeout i_rattempts
                  i_term i_now i_out i_err emit fail set_round_state set_pv set_cands set_quality set_decision set_progress set_timers
                  set_term set_now reset_rebroadcast alarm_after broadcast].

Ltac proj_in H := cbn [i_input i_proposal i_value i_cands i_quality i_rounds i_decision i_round i_phase i_ptimeout i_rtimeout i_rattempts
                  i_term i_now i_out i_err emit fail set_round_state set_pv set_cands set_quality set_decision set_progress set_timers
                  set_term set_now reset_rebroadcast alarm_after broadcast] in H.

Section Happy.
Variable c : config.
Variable v : chain.
Hypothesis Hv : (2 <= length v)%nat.
Hypothesis Hcw : committee_wf c.
Hypothesis Hrr : 0 <= c_rebro_round c.

Local Notation uni := (uni c v).
Local Notation uniQ := (uniQ c v).
Local Notation shape := (shape c v).
Local Notation out_v := (out_v v).
Local Notation strong p := (isStrongQuorum p (c_total c)).


Definition tally (i : inst) (p : phase) : qstate :=
  match p with
  | QUALITY => i_quality i
  | PREPARE => r_prep (get_round i 0)
  | COMMIT => r_comm (get_round i 0)
  | DECIDE => i_decision i
  | _ => q_empty
  end.
Definition next (p : phase) : phase :=
  match p with QUALITY => PREPARE | PREPARE => COMMIT | COMMIT => DECIDE | _ => TERMINATED end.

Lemma shape_tally i p : shape i -> uniQ (tally i p) /\ (p <> QUALITY -> uni (tally i p)).
Proof.
  intros S. destruct (sh_rounds c v i S) as (prep & comm & Er & Up & Uc). unfold tally, get_round. rewrite Er. cbn [rget Z.eqb r_prep r_comm].
  assert (UQ : forall q, uni q -> uniQ q).
  { intros q (A & B & [(E1 & E2)|(N & sg & E2)]); (split; [exact A|split; [exact B|]]); [left|right]; rewrite E2; cbn [sup_find s_chain];
      [split; [exact E1|reflexivity]|]. rewrite chain_eqb_refl. split; [exact N|exists sg; reflexivity]. }
  destruct p; try (split; [apply UQ|intros _]; first [exact Up|exact Uc|exact (sh_dec c v i S)|apply uni_empty; assumption]).
  split; [exact (sh_qual c v i S)|congruence].
Qed.

Lemma try_quality_happy i : shape i -> timely i ->
  try_quality c i = if strong (q_spower (tally i QUALITY))
                    then begin_prepare c (set_pv (add_candidate_prefixes (set_pv i v (i_value i)) v) v v) None else i.
Proof.
  intros S Ht. unfold try_quality. rewrite (timely_not_elapsed i Ht), (sh_prop c v i S), orb_false_r, (sh_input c v i S).
  pose proof (uniQ_has_sq c v Hcw _ (sh_qual c v i S)) as E. rewrite E. cbn [tally].
  destruct (strong _); [|reflexivity]. rewrite (longest_prefix_full _ _ (v_nonnil v Hv) E). reflexivity.
Qed.

Lemma try_prepare_happy i : shape i -> timely i ->
  try_prepare c i = if strong (q_spower (tally i PREPARE)) || q_has_just (tally i COMMIT) PREPARE v
                    then begin_commit c (set_pv i v v) else i.
Proof.
  intros S Ht. destruct (sh_rounds c v i S) as (prep & comm & Er & Up & Uc).
  unfold try_prepare, tally, get_round. cbv zeta. rewrite (sh_prop c v i S), (sh_round c v i S), Er.
  cbn [rget Z.eqb Z.add Pos.eqb r_prep r_comm r_conv r_empty].
  rewrite (uni_could_reach c v Hv Hcw prep Up), (timely_not_elapsed i Ht), (uni_has_sq c v Hcw prep Up). cbn [negb andb].
  replace (q_has_just q_empty PREPARE v) with false by (destruct v; reflexivity).
  replace (c_has_just c_empty PREPARE v) with false by (destruct v; reflexivity).
  rewrite !orb_false_r.
  destruct (_ || _); [reflexivity|]. rewrite (no_rebroadcast c Hrr i Ht (sh_round c v i S)). reflexivity.
Qed.

(* outside COMMIT of round 0 tryCommit only looks for a strong quorum, whatever the timer says *)
Lemma try_commit_happy i sway : shape i -> timely i \/ i_phase i <> COMMIT ->
  try_commit c i 0 sway = if strong (q_spower (tally i COMMIT)) then begin_decide c (set_pv i v v) 0 else i.
Proof.
  intros S Ht. destruct (sh_rounds c v i S) as (prep & comm & Er & Up & Uc). destruct (v_cons v Hv) as (x & w & Ev).
  unfold try_commit, tally, get_round. rewrite Er. cbn [rget Z.eqb Z.add Pos.eqb r_prep r_comm r_conv r_empty].
  rewrite (uni_find_sq_value c v Hcw comm Uc), (sh_prop c v i S).
  destruct (strong (q_spower comm)); [rewrite Ev; reflexivity|].
  cbn [orb]. change (q_has_just q_empty COMMIT [] || c_has_just c_empty COMMIT []) with false. cbn [orb].
  rewrite (sh_round c v i S). cbn [Z.eqb negb orb].
  destruct (phase_eqb (i_phase i) COMMIT) eqn:Ep; [|reflexivity]. cbn [negb].
  destruct Ht as [Ht|Ht]; [|apply phase_eqb_true in Ep; contradiction].
  rewrite (timely_not_elapsed i Ht). cbn [andb]. rewrite (no_rebroadcast c Hrr i Ht (sh_round c v i S)). reflexivity.
Qed.

Lemma try_decide_happy i : shape i ->
  try_decide c i = if strong (q_spower (tally i DECIDE))
                   then match q_find_sq_for c (i_decision i) v with
                        | FsqSome sg => terminate i (build_just 0 DECIDE v sg) | _ => fail i PTryDecide end
                   else try_rebroadcast c i.
Proof.
  intros S. unfold try_decide, tally. rewrite (uni_find_sq_value c v Hcw _ (sh_dec c v i S)).
  destruct (strong _); reflexivity.
Qed.

Record hmove (p : phase) (i i' : inst) : Prop := {
  hm_keep : i_input i' = i_input i /\ i_round i' = i_round i /\ i_rounds i' = i_rounds i /\ i_quality i' = i_quality i /\
            i_decision i' = i_decision i /\ i_now i' = i_now i;
  hm_pv : i_proposal i' = v /\ i_value i' = v;
  hm_ph : i_phase i' = p;
  hm_pt : i_ptimeout i' = i_ptimeout i \/ i_ptimeout i' = i_now i + nthZ (c_timeouts c) (i_round i);
  hm_out : exists al, i_out i' = al ++ i_out i /\ Forall out_v al /\ (p <> TERMINATED -> exists j t, In (OBroadcast 0 p v j t) al);
  hm_term : if phase_eqb p TERMINATED then exists sg, i_term i' = Some (build_just 0 DECIDE v sg) else i_term i' = i_term i }.

Lemma hmove_begin_prepare i cs j : i_round i = 0 ->
  hmove PREPARE i (begin_prepare c (set_pv (set_cands (set_pv i v (i_value i)) cs) v v) j).
Proof.
  intros Hr. unfold begin_prepare. constructor; proj.
  - repeat split.
  - split; reflexivity.
  - reflexivity.
  - right. reflexivity.
  - rewrite Hr. eexists [_; _]. split; [reflexivity|]. split; [|intros _; eexists _, _; left; reflexivity].
    constructor; [cbn; repeat split; right; left; reflexivity|]. constructor; [exact I|constructor].
  - reflexivity.
Qed.

Lemma begin_commit_happy i : i_value i = v ->
  let i1 := reset_rebroadcast (alarm_after c (set_progress i (i_round i) COMMIT) false) in
  (exists jj, begin_commit c i = broadcast i1 (i_round i) COMMIT v false jj) \/ (exists e, begin_commit c i = fail i1 e).
Proof.
  intros Hval. destruct (v_cons v Hv) as (x & w & Ev). unfold begin_commit. proj. rewrite Hval, Ev. rewrite <- Ev.
  destruct (q_find_sq_for c _ v); [|right; eexists; reflexivity|left; eexists; reflexivity].
  destruct (q_get_just _ PREPARE v); [left; eexists; reflexivity|]. destruct (q_get_just _ PREPARE v); [left; eexists; reflexivity|].
  destruct (c_get_just _ PREPARE v); [left|right]; eexists; reflexivity.
Qed.

Lemma hmove_begin_commit i : i_round i = 0 -> i_err (begin_commit c (set_pv i v v)) = None -> hmove COMMIT i (begin_commit c (set_pv i v v)).
Proof.
  intros Hr He. destruct (begin_commit_happy (set_pv i v v) eq_refl) as [(jj & E)|(e & E)]; rewrite E in *; [|destruct (err_fail_some _ _ He)].
  constructor; proj.
  - repeat split.
  - split; reflexivity.
  - reflexivity.
  - right. reflexivity.
  - rewrite Hr. eexists [_; _]. split; [reflexivity|]. split; [|intros _; eexists _, _; left; reflexivity].
    constructor; [cbn; repeat split; right; right; left; reflexivity|]. constructor; [exact I|constructor].
  - reflexivity.
Qed.

Lemma hmove_bcast_decide i j :
  hmove DECIDE i (broadcast (reset_rebroadcast (set_progress (set_pv i v v) (i_round i) DECIDE)) 0 DECIDE v false j).
Proof.
  constructor; proj.
  - repeat split.
  - split; reflexivity.
  - reflexivity.
  - left. reflexivity.
  - eexists [_]. split; [reflexivity|]. split; [|intros _; eexists _, _; left; reflexivity].
    constructor; [cbn; repeat split; right; right; right; reflexivity|constructor].
  - reflexivity.
Qed.

Lemma hmove_begin_decide i : i_err (begin_decide c (set_pv i v v) 0) = None -> hmove DECIDE i (begin_decide c (set_pv i v v) 0).
Proof.
  intros He. unfold begin_decide in *. proj. proj_in He. destruct (q_find_sq_for c _ v); try destruct (err_fail_some _ _ He).
  apply hmove_bcast_decide.
Qed.

Lemma hmove_skip_to_decide i j : hmove DECIDE i (skip_to_decide i v j).
Proof. exact (hmove_bcast_decide i j). Qed.

Lemma hmove_terminate i sg : i_proposal i = v -> hmove TERMINATED i (terminate i (build_just 0 DECIDE v sg)).
Proof.
  intros Hp. unfold terminate, build_just. constructor; proj.
  - repeat split.
  - split; [exact Hp|reflexivity].
  - reflexivity.
  - left. reflexivity.
  - exists []. split; [reflexivity|]. split; [constructor|intros H; destruct (H eq_refl)].
  - exists sg. reflexivity.
Qed.

Lemma shape_hmove p i i' : vphase p -> shape i -> hmove p i i' -> shape i'.
Proof.
  intros Vp [A B C D F G H I J K] [(E1 & E2 & E3 & E4 & E5 & _) (P1 & P2) Ph _ (al & Eo & Ho & _) Tm].
  constructor; try congruence.
  - rewrite E3. exact D.
  - left. exact P2.
  - intros j Ej. destruct (phase_eqb p TERMINATED); [destruct Tm as (sg & Tm); rewrite Tm in Ej; injection Ej as <-; reflexivity|].
    apply J. congruence.
  - rewrite Eo. apply Forall_app. split; assumption.
Qed.

Definition okt (i : inst) : Prop := timely i \/ i_phase i = DECIDE \/ i_phase i = TERMINATED.

Lemma try_current_phase_happy i sway : shape i -> okt i -> i_err (try_current_phase c i sway) = None ->
  let i' := try_current_phase c i sway in
  ((i' = i \/ i' = try_rebroadcast c i) /\ strong (q_spower (tally i (i_phase i))) = false) \/
  (i_phase i <> TERMINATED /\ hmove (next (i_phase i)) i i').
Proof.
  intros S Hk He. cbv zeta. unfold try_current_phase in *. pose proof (sh_round c v i S) as Hr.
  assert (Ht : i_phase i <> DECIDE -> i_phase i <> TERMINATED -> timely i) by (destruct Hk as [T|[T|T]]; [intros _ _; exact T|contradiction|contradiction]).
  destruct (sh_phase c v i S) as [Ep|[Ep|[Ep|[Ep|Ep]]]]; rewrite Ep in *; cbn [next].
  - rewrite (try_quality_happy i S (Ht ltac:(discriminate) ltac:(discriminate))) in *.
    destruct (strong _); [right|left; split; [left; reflexivity|reflexivity]]. split; [discriminate|].
    destruct (acp_nf (set_pv i v (i_value i)) v) as (cs & _ & _ & -> & _). apply hmove_begin_prepare. exact Hr.
  - rewrite (try_prepare_happy i S (Ht ltac:(discriminate) ltac:(discriminate))) in *.
    destruct (strong _ || _) eqn:Eb; [right; split; [discriminate|apply hmove_begin_commit; assumption]|].
    left. split; [left; reflexivity|]. apply orb_false_elim in Eb. exact (proj1 Eb).
  - rewrite Hr, (try_commit_happy i sway S (or_introl (Ht ltac:(discriminate) ltac:(discriminate)))) in *.
    destruct (strong _); [right; split; [discriminate|apply hmove_begin_decide; assumption]|left; split; [left; reflexivity|reflexivity]].
  - rewrite (try_decide_happy i S) in *.
    destruct (strong _); [right; split; [discriminate|]|left; split; [right; reflexivity|reflexivity]].
    destruct (q_find_sq_for c (i_decision i) v); try destruct (err_fail_some _ _ He). apply hmove_terminate. exact (sh_prop c v i S).
  - left. split; [left; reflexivity|]. cbn. exact (strong0 c Hcw).
Qed.

Lemma vphase_next p : vphase (next p).
Proof. unfold vphase. destruct p; cbn; auto. Qed.

Lemma shape_try_current_phase i sway : shape i -> okt i -> i_err (try_current_phase c i sway) = None -> shape (try_current_phase c i sway).
Proof.
  intros S Hk He. destruct (try_current_phase_happy i sway S Hk He) as [([->| ->] & _)|(_ & M)].
  - exact S.
  - apply shape_try_rebroadcast; assumption.
  - exact (shape_hmove _ _ _ (vphase_next _) S M).
Qed.

Definition vmsg (m : msg) : Prop :=
  m_round m = 0 /\ m_value m = v /\ (m_phase m = QUALITY \/ m_phase m = PREPARE \/ m_phase m = COMMIT \/ m_phase m = DECIDE).

Definition record (i : inst) (m : msg) : inst :=
  let rs := get_round i 0 in
  let wj q := match m_just m with Some j => q_receive_just q v j | None => q end in
  match m_phase m with
  | QUALITY => set_round_state (set_quality i (q_receive_prefixes c (i_quality i) (m_sender m) v)) 0 rs
  | PREPARE => set_round_state i 0 (mkR (r_conv rs) (wj (q_receive c (r_prep rs) (m_sender m) v)) (r_comm rs))
  | COMMIT => set_round_state i 0 (mkR (r_conv rs) (r_prep rs) (wj (q_receive c (r_comm rs) (m_sender m) v)))
  | DECIDE => set_round_state (set_decision i (q_receive c (i_decision i) (m_sender m) v)) 0 rs
  | _ => i
  end.

Lemma receive_one_happy i m sway : vmsg m -> i_round i = 0 -> i_phase i <> TERMINATED ->
  fst (receive_one c i m sway) =
  let i1 := record i m in
  match m_phase m with
  | QUALITY => if phase_eqb (i_phase i) QUALITY then try_current_phase c i1 sway else update_candidates_from_quality i1
  | COMMIT =>
      if phase_eqb (i_phase i) DECIDE then try_current_phase c i1 sway else
      let i2 := try_commit c i1 0 sway in
      if (match i_err i2 with None => true | Some _ => false end) && phase_eqb (i_phase i2) PREPARE && (i_round i2 =? 0)
      then try_current_phase c i2 sway else i2
  | DECIDE => try_current_phase c (if phase_eqb (i_phase i) DECIDE then i1 else skip_to_decide i1 v (m_just m)) sway
  | _ => try_current_phase c i1 sway
  end.
Proof.
  intros (Hmr & Hmv & Hmp) Hr Hnt. apply phase_eqb_false in Hnt. destruct (v_cons v Hv) as (x & w & Ev).
  unfold receive_one, record. rewrite Hnt, Hmr, Hr, Hmv. change (0 <? 0) with false. cbn [andb].
  replace (is_spammable m) with false by (unfold is_spammable; rewrite Hmr, andb_false_r; reflexivity). rewrite andb_false_r.
  destruct Hmp as [Hmp|[Hmp|[Hmp|Hmp]]]; rewrite Hmp; cbv zeta; proj.
  - destruct (phase_eqb (i_phase i) QUALITY); reflexivity.
  - reflexivity.
  - assert (Em : forall (A : Type) (a b : A), match v with [] => a | _ :: _ => b end = b) by (intros; rewrite Ev; reflexivity).
    replace (is_zero v) with false by (rewrite Ev; reflexivity). rewrite !Em. cbn [negb]. rewrite andb_true_r.
    destruct (phase_eqb (i_phase i) DECIDE); cbn [negb]; [reflexivity|]. destruct (_ && _ && _); reflexivity.
  - destruct (phase_eqb (i_phase i) DECIDE); reflexivity.
Qed.

Lemma shape_rounds_upd i prep' comm' : shape i -> uni prep' -> uni comm' -> shape (set_round_state i 0 (mkR c_empty prep' comm')).
Proof.
  intros [A B C D F G H I J K] Up Uc. destruct D as (p0 & c0 & Er & _ & _). constructor; proj; try assumption.
  rewrite Er. cbn [rset Z.eqb]. exists prep', comm'. split; [reflexivity|split; assumption].
Qed.

Lemma shape_record i m : shape i -> shape (record i m).
Proof.
  intros S. destruct (sh_rounds c v i S) as (prep & comm & Er & Up & Uc). unfold record, get_round. rewrite Er. cbn [rget Z.eqb r_conv r_prep r_comm].
  assert (W : forall q, uni q -> uni match m_just m with Some j => q_receive_just q v j | None => q end)
    by (intros q U; destruct (m_just m); [apply uni_receive_just|]; exact U).
  destruct (m_phase m); try exact S; apply shape_rounds_upd; try assumption; try (apply W, uni_receive; assumption);
    destruct S as [A B C D F G H I J K]; constructor; proj; try assumption; [apply uniQ_receive|apply uni_receive]; assumption.
Qed.

Lemma record_view i m : i_now (record i m) = i_now i /\ i_ptimeout (record i m) = i_ptimeout i /\ i_phase (record i m) = i_phase i /\
  i_err (record i m) = i_err i /\ i_out (record i m) = i_out i /\ i_term (record i m) = i_term i.
Proof. unfold record. destruct (m_phase m); repeat split. Qed.

Lemma okt_record i m : okt i -> okt (record i m).
Proof. destruct (record_view i m) as (A & B & C & _). unfold okt, timely. rewrite A, B, C. exact (fun H => H). Qed.

Lemma shape_skip_to_decide i j : shape i -> shape (skip_to_decide i v j).
Proof. intros S. apply (shape_hmove DECIDE i); [unfold vphase; auto|exact S|apply hmove_skip_to_decide]. Qed.

Lemma try_commit_record i m sway : shape i -> okt i -> i_phase i <> DECIDE -> i_phase i <> TERMINATED ->
  let i1 := record i m in let i2 := try_commit c i1 0 sway in
  i_err i2 = None -> (i2 = i1 /\ strong (q_spower (tally i1 COMMIT)) = false) \/ hmove DECIDE i1 i2.
Proof.
  intros S Hk Hd Ht. cbv zeta. pose proof (shape_record i m S) as S1.
  rewrite (try_commit_happy _ sway S1); [|left; destruct (okt_record i m Hk) as [T|[T|T]]; [exact T| |]; rewrite (proj1 (proj2 (proj2 (record_view i m)))) in T; contradiction].
  destruct (strong _); [right; apply hmove_begin_decide; assumption|left; split; reflexivity].
Qed.

Lemma shape_receive_one i m sway : shape i -> okt i -> vmsg m -> i_err (fst (receive_one c i m sway)) = None -> shape (fst (receive_one c i m sway)).
Proof.
  intros S Hk Hm He. destruct (phase_eqb (i_phase i) TERMINATED) eqn:Et; [apply phase_eqb_true in Et; rewrite (receive_one_terminated c i m sway Et); exact S|].
  apply phase_eqb_false in Et. rewrite (receive_one_happy i m sway Hm (sh_round c v i S) Et) in *. cbv zeta in *.
  pose proof (shape_record i m S) as S1. pose proof (okt_record i m Hk) as K1.
  destruct Hm as (_ & _ & [Hp|[Hp|[Hp|Hp]]]); rewrite Hp in *.
  - destruct (phase_eqb (i_phase i) QUALITY); [apply shape_try_current_phase; assumption|].
    unfold update_candidates_from_quality. destruct (acp_nf (record i m) (q_longest_prefix (i_quality (record i m)) (i_input (record i m)))) as (cs & _ & _ & -> & _).
    apply (shape_hview c v (record i m)); [reflexivity|exact (sh_out c v _ S1)|exact S1].
  - apply shape_try_current_phase; assumption.
  - destruct (phase_eqb (i_phase i) DECIDE) eqn:Ed; [apply shape_try_current_phase; assumption|]. apply phase_eqb_false in Ed.
    set (i2 := try_commit c (record i m) 0 sway) in *.
    assert (E2 : i_err i2 = None).
    { destruct (i_err i2) eqn:E; [|reflexivity]. cbn [andb] in He. rewrite E in He. discriminate He. }
    assert (S2 : shape i2 /\ (i_phase i2 = PREPARE -> okt i2)).
    { destruct (try_commit_record i m sway S Hk Ed Et E2) as [(E & _)|M].
      - fold i2 in E. rewrite E. split; [exact S1|intros _; exact K1].
      - fold i2 in M. split; [exact (shape_hmove DECIDE _ _ (vphase_next COMMIT) S1 M)|]. intros E. rewrite (hm_ph _ _ _ M) in E. discriminate E. }
    destruct (_ && phase_eqb (i_phase i2) PREPARE && _) eqn:Ea; [|exact (proj1 S2)].
    apply shape_try_current_phase; [exact (proj1 S2)| |exact He]. apply S2. apply phase_eqb_true.
    apply andb_prop in Ea. destruct Ea as [Ea _]. apply andb_prop in Ea. exact (proj2 Ea).
  - destruct (phase_eqb (i_phase i) DECIDE) eqn:Ed; apply shape_try_current_phase; try assumption.
    + apply shape_skip_to_decide; exact S1.
    + right. left. reflexivity.
Qed.

Lemma shape_set_now i now : shape i -> shape (set_now i now).
Proof. intros S. apply (shape_core c v i); [reflexivity|exact (sh_out c v i S)|exact S]. Qed.
Lemma shape_clear_out i : shape i -> shape (clear_out i).
Proof. intros S. apply (shape_core c v i); [reflexivity|constructor|exact S]. Qed.

(* in round 0 postReceive does nothing *)
Lemma step_deliver_happy i now m sway : shape i -> okt (set_now i now) -> vmsg m -> i_err (step c i (EvDeliver now m sway)) = None ->
  step c i (EvDeliver now m sway) = fst (receive_one c (set_now i now) m sway) /\ i_err (fst (receive_one c (set_now i now) m sway)) = None.
Proof.
  intros S Hk Hm He. pose proof (shape_receive_one _ m sway (shape_set_now i now S) Hk Hm) as R. cbn [step] in *.
  destruct (receive_one c (set_now i now) m sway) as [i1 changed]. cbn [fst] in *.
  destruct (changed && match i_err i1 with None => true | Some _ => false end) eqn:Ec; [|split; [reflexivity|exact He]].
  assert (E1 : i_err i1 = None) by (destruct (i_err i1); [rewrite andb_false_r in Ec; discriminate Ec|reflexivity]).
  unfold post_receive. rewrite (proj1 Hm), (sh_round c v i1 (R E1)). split; [reflexivity|exact E1].
Qed.

Theorem shape_deliver i now m sway : shape i -> okt (set_now i now) -> vmsg m ->
  i_err (step c i (EvDeliver now m sway)) = None -> shape (step c i (EvDeliver now m sway)).
Proof.
  intros S Hk Hm He. destruct (step_deliver_happy i now m sway S Hk Hm He) as (-> & E1).
  exact (shape_receive_one _ m sway (shape_set_now i now S) Hk Hm E1).
Qed.

Theorem shape_start now : shape (step c (new_instance v 0) (EvStart now)).
Proof.
  cbn [step]. unfold begin_quality, new_instance. proj. cbn [phase_eqb phase_code Z.eqb negb].
  constructor; proj; try reflexivity.
  - exists q_empty, q_empty. split; [reflexivity|split; apply uni_empty; assumption].
  - apply uniQ_empty; assumption.
  - apply uni_empty; assumption.
  - right. split; reflexivity.
  - left. reflexivity.
  - intros j Ej. discriminate Ej.
  - constructor; [cbn; repeat split; left; reflexivity|]. constructor; [exact I|constructor].
Qed.
End Happy.
