(* C05 / C13 on the validator model: the verdict as a function of a cache-free rule set (hence independent of the cache
   history), the rule set against the declarative rules, the two-stage path against one-shot validation. *)
From Coq Require Import ZArith List Bool Lia.
From F3 Require Import GoInt ListX QuorumGen ProgressGen Validator.
Import ListNotations.
Open Scope Z_scope.

(* boolean hypotheses into propositions *)
Ltac bsplit :=
  repeat match goal with
         | H : _ && _ = true |- _ => apply andb_prop in H; destruct H
         | H : negb _ = true |- _ => apply negb_true_iff in H
         | H : (_ =? _) = true |- _ => apply Z.eqb_eq in H
         | H : (_ =? _) = false |- _ => apply Z.eqb_neq in H
         end.

Lemma ch_eqb_eq a b : ch_eqb a b = true -> a = b.
Proof. destruct a, b; unfold ch_eqb; cbn. intros H. bsplit. f_equal; auto using eqb_prop. Qed.
Lemma pd_eqb_eq a b : pd_eqb a b = true -> a = b.
Proof. destruct a, b; unfold pd_eqb; cbn. intros H. bsplit. f_equal; assumption. Qed.
Lemma zl_eqb_eq a b : zl_eqb a b = true -> a = b.
Proof. apply eqb_listZ_eq. Qed.
Lemma vote_eqb_eq a b : vote_eqb a b = true -> a = b.
Proof. destruct a, b; unfold vote_eqb; cbn. intros H. bsplit. f_equal; auto using ch_eqb_eq. Qed.
Lemma osig_eqb_eq {A} (f : A -> A -> bool) (Hf : forall x y, f x y = true -> x = y) a b : osig_eqb f a b = true -> a = b.
Proof.
  destruct a as [[x p]|], b as [[y q]|]; cbn; intros H; try discriminate H; [|reflexivity].
  bsplit. do 2 f_equal; auto using pd_eqb_eq.
Qed.
Lemma just_eqb_eq a b : just_eqb a b = true -> a = b.
Proof. destruct a, b; unfold just_eqb; cbn. intros H. bsplit. f_equal; auto using vote_eqb_eq, zl_eqb_eq, (osig_eqb_eq zl_eqb). Qed.
Lemma tk_eqb_eq a b : tk_eqb a b = true -> a = b.
Proof. destruct a as [[]|], b as [[]|]; cbn; intros H; try discriminate H; [|reflexivity]. bsplit. do 2 f_equal; assumption. Qed.
Lemma ojust_eqb_eq a b : ojust_eqb a b = true -> a = b.
Proof. destruct a, b; cbn; intros H; try discriminate H; [f_equal; auto using just_eqb_eq|reflexivity]. Qed.
Lemma gmsg_eqb_eq a b : gmsg_eqb a b = true -> a = b.
Proof.
  destruct a, b; unfold gmsg_eqb; cbn. intros H. bsplit.
  f_equal; auto using vote_eqb_eq, tk_eqb_eq, ojust_eqb_eq, (osig_eqb_eq Z.eqb (fun x y => proj1 (Z.eqb_eq x y))).
Qed.

(* cache-free: the checks of validateJustification / validateMessageWithVoteValueKey, in their order *)
Definition just_accepts (net : Z) (cmt : committee) (partial : option Z) (m : gmsg) : bool :=
  match g_just m with
  | None => false
  | Some j =>
      let jv := j_vote j in
      (v_inst (g_vote m) =? v_inst jv) && (v_supp (g_vote m) =? v_supp jv) && cvalid (v_value jv) &&
      let msgkey := match partial with Some k => k | None => ck (v_value (g_vote m)) end in
      match expectation (v_phase (g_vote m)) (v_round (g_vote m)) (v_phase jv) msgkey with
      | None => false
      | Some (rd, ekey) =>
          (match rd with Some r => v_round jv =? r | None => true end) &&
          (match partial with None => ck (v_value jv) =? ekey | Some _ => true end) &&
          just_sig_ok net cmt j ekey
      end
  end.

Definition accepts (net : Z) (cmt : committee) (partial : option Z) (m : gmsg) : bool :=
  match lookup_member (cm_members cmt) (g_sender m) with
  | None => false
  | Some mem =>
      let v := g_vote m in
      let bottom := match partial with Some k => k =? 0 | None => ch_is_zero (v_value v) end in
      let key := match partial with Some k => k | None => ck (v_value v) end in
      negb (m_power mem =? 0) && cvalid (v_value v) &&
      (if v_phase v =? 1 then (v_round v =? 0) && negb bottom
       else if v_phase v =? 2 then
         negb (v_round v =? 0) && negb bottom &&
         match g_ticket m with
         | Some t => (t_key t =? m_key mem) && (t_net t =? net) && (t_inst t =? v_inst v) && (t_round t =? v_round v)
         | None => false end
       else if v_phase v =? 5 then (v_round v =? 0) && negb bottom
       else (v_phase v =? 3) || (v_phase v =? 4)) &&
      match g_sig m with
      | Some (k, pd) => (k =? m_key mem) && pd_eqb pd (mkPd net (v_inst v) (v_round v) (v_phase v) (v_supp v) key)
      | None => false end &&
      (if negb ((v_phase v =? 1) || ((v_phase v =? 3) && (v_round v =? 0)) || ((v_phase v =? 4) && bottom))
       then just_accepts net cmt partial m
       else match g_just m with None => true | Some _ => false end)
  end.

Lemma by_progress_not_ok p lb m e : by_progress p lb m = Some e -> e <> VOk.
Proof. unfold by_progress. destruct (validateByProgress _ _ _ _ _ _ _) as [[]|]; intros [= <-]; discriminate. Qed.

Section Hist.
Variable net : Z.
Variable cmts : Z -> option committee.      (* the committee of each instance: fixed once known *)

Definition ok_msg (partial : option Z) (m : gmsg) : Prop :=
  exists cm, cmts (v_inst (g_vote m)) = Some cm /\ accepts net cm partial m = true.
Definition ok_just (j : just) (k : Z) : Prop :=
  exists cm, cmts (v_inst (j_vote j)) = Some cm /\ just_sig_ok net cm j k = true.

(* everything in the cache was validated against the committee of its own instance *)
Definition CacheOK (c : cache) : Prop :=
  (forall m, In m (c_msg c) -> ok_msg None m) /\
  (forall m k, In (m, k) (c_pmsg c) -> ok_msg (Some k) m) /\
  (forall j k, In (j, k) (c_just c) -> ok_just j k) /\
  (forall j k, In (j, k) (c_pjust c) -> ok_just j k).

Lemma CacheOK_empty : CacheOK cache_empty.
Proof. repeat split; intros; contradiction. Qed.

Lemma jk_mem_In l j k : jk_mem l j k = true -> In (j, k) l.
Proof.
  unfold jk_mem. rewrite existsb_exists. intros ([j' k'] & Hin & H). cbn in H.
  apply andb_prop in H. destruct H as [H1 H2]. apply just_eqb_eq in H1. apply Z.eqb_eq in H2. subst. exact Hin.
Qed.

Lemma hit_ok c partial cm m :
  CacheOK c -> cmts (v_inst (g_vote m)) = Some cm ->
  (match partial with
   | Some k => existsb (fun e => gmsg_eqb (fst e) m && (snd e =? k)) (c_pmsg c)
   | None => existsb (gmsg_eqb m) (c_msg c) end) = true -> accepts net cm partial m = true.
Proof.
  intros (H1 & H2 & _) Hc E.
  assert (ok_msg partial m) as (cm' & Hc' & Hv); [|congruence].
  destruct partial as [k|]; apply existsb_exists in E.
  - destruct E as ([m' k'] & Hin & E). apply andb_prop in E. destruct E as [Em Ek].
    apply gmsg_eqb_eq in Em. apply Z.eqb_eq in Ek. cbn in *. subst. exact (H2 _ _ Hin).
  - destruct E as (m' & Hin & E). apply gmsg_eqb_eq in E. subst. exact (H1 _ Hin).
Qed.
Lemma jhit_ok c (partial : option Z) cm j k :
  CacheOK c -> cmts (v_inst (j_vote j)) = Some cm ->
  (match partial with Some _ => jk_mem (c_pjust c) j k | None => jk_mem (c_just c) j k end) = true -> just_sig_ok net cm j k = true.
Proof.
  intros (_ & _ & H3 & H4) Hc E.
  assert (ok_just j k) as (cm' & Hc' & Hs) by (destruct partial; apply jk_mem_In in E; auto).
  congruence.
Qed.
Lemma add_just_ok c (partial : option Z) j k :
  CacheOK c -> ok_just j k ->
  CacheOK (match partial with
           | Some _ => mkCache (c_msg c) (c_pmsg c) (c_just c) ((j, k) :: c_pjust c)
           | None => mkCache (c_msg c) (c_pmsg c) ((j, k) :: c_just c) (c_pjust c) end).
Proof.
  intros (H1 & H2 & H3 & H4) Hj. destruct partial; repeat split; cbn; auto; intros j' k' [[= <- <-]|Hin]; auto.
Qed.
Lemma add_msg_ok c partial m :
  CacheOK c -> ok_msg partial m ->
  CacheOK (match partial with
           | Some k => mkCache (c_msg c) ((m, k) :: c_pmsg c) (c_just c) (c_pjust c)
           | None => mkCache (m :: c_msg c) (c_pmsg c) (c_just c) (c_pjust c) end).
Proof.
  intros (H1 & H2 & H3 & H4) Hm. destruct partial; repeat split; cbn; auto.
  - intros m' k' [[= <- <-]|Hin]; auto.
  - intros m' [<-|Hin]; auto.
Qed.

Lemma validate_just_spec cm c partial m :
  CacheOK c -> cmts (v_inst (g_vote m)) = Some cm ->
  fst (validate_just net cm c partial m) = just_accepts net cm partial m /\
  CacheOK (snd (validate_just net cm c partial m)).
Proof.
  intros HC Hcm. unfold validate_just, just_accepts.
  destruct (g_just m) as [j|]; [|now split].
  destruct (Z.eqb_spec (v_inst (g_vote m)) (v_inst (j_vote j))) as [Ei|]; [rewrite Ei in Hcm|now split].
  destruct (v_supp (g_vote m) =? v_supp (j_vote j)); [|now split].
  destruct (cvalid (v_value (j_vote j))); [|now split].
  destruct (expectation _ _ _ _) as [[rd ekey]|]; [|now split]. cbn [negb andb].
  (* the round and key tests appear negated in the code and plain in the rule set: decide each once *)
  destruct (match rd with Some r => v_round (j_vote j) =? r | None => true end) eqn:Er;
    [|destruct rd; [rewrite Er|discriminate]; now split].
  replace (match rd with Some r => negb (v_round (j_vote j) =? r) | None => false end) with false
    by (destruct rd; [rewrite Er|]; reflexivity).
  destruct (match partial with None => ck (v_value (j_vote j)) =? ekey | Some _ => true end) eqn:Ek;
    [|destruct partial; [discriminate|rewrite Ek]; now split].
  replace (match partial with None => negb (ck (v_value (j_vote j)) =? ekey) | Some _ => false end) with false
    by (destruct partial; [|rewrite Ek]; reflexivity).
  cbn [andb].
  match goal with |- context [if ?b then (true, c) else _] => destruct b eqn:Ec end.
  - rewrite (jhit_ok c partial cm j ekey HC Hcm Ec). now split.
  - destruct (just_sig_ok net cm j ekey) eqn:Es; [|now split].
    split; [reflexivity|]. apply add_just_ok; [exact HC|]. exists cm. now split.
Qed.

Lemma validate_with_key_spec cm c partial m :
  CacheOK c -> cmts (v_inst (g_vote m)) = Some cm ->
  fst (validate_with_key net (Some cm) c partial m) = (if accepts net cm partial m then VOk else VInvalid) /\
  CacheOK (snd (validate_with_key net (Some cm) c partial m)).
Proof.
  intros HC Hcm.
  (* carried along so that the one walk through validate_with_key simplifies the rule set in it too *)
  assert (Ha : accepts net cm partial m = true -> ok_msg partial m) by (intros; exists cm; now split).
  revert Ha. unfold validate_with_key.
  match goal with |- context [if ?b then (VOk, c) else _] => destruct b eqn:Ehit end.
  { intros _. rewrite (hit_ok c partial cm m HC Hcm Ehit). now split. }
  unfold accepts.
  destruct (lookup_member (cm_members cm) (g_sender m)) as [mem|]; [|intros _; now split].
  destruct (m_power mem =? 0); [intros _; now split|].
  destruct (cvalid (v_value (g_vote m))); [|intros _; now split]. cbn [negb andb].
  match goal with |- context [if negb ?b then (VInvalid, c) else _] => destruct b end; [|intros _; now split].
  cbn [negb andb].
  match goal with |- context [if negb ?b then (VInvalid, c) else _] => destruct b end; [|intros _; now split].
  cbn [negb andb].
  match goal with |- context [if ?b then validate_just net cm c partial m else _] => destruct b end.
  - destruct (validate_just_spec cm c partial m HC Hcm) as [<- Hj2].
    destruct (validate_just net cm c partial m) as [[|] c1]; cbn [fst snd negb] in *; intros Ha; [|now split].
    split; [reflexivity|]. apply add_msg_ok; auto.
  - destruct (g_just m); cbn [negb fst snd]; intros Ha; [now split|].
    split; [reflexivity|]. apply add_msg_ok; auto.
Qed.

(* the common shape of validate_message and partially_validate *)
Lemma gated_ok cm c p lb partial m :
  CacheOK c -> cmts (v_inst (g_vote m)) = Some cm ->
  fst (match by_progress p lb m with Some e => (e, c) | None => validate_with_key net (Some cm) c partial m end) = VOk <->
  by_progress p lb m = None /\ accepts net cm partial m = true.
Proof.
  intros HC Hcm. destruct (by_progress p lb m) as [e|] eqn:Ep; cbn [fst].
  - split; [intros ->; now apply by_progress_not_ok in Ep|intros [? _]; discriminate].
  - rewrite (proj1 (validate_with_key_spec cm c partial m HC Hcm)).
    destruct (accepts net cm partial m); split; [auto|auto|discriminate|intros [_ ?]; discriminate].
Qed.
End Hist.

Definition needs_just (v : vote) : bool :=
  negb ((v_phase v =? 1) || ((v_phase v =? 3) && (v_round v =? 0)) || ((v_phase v =? 4) && ch_is_zero (v_value v))).

Record ValidJust (net : Z) (cmt : committee) (v : vote) (j : just) : Prop := {
  vj_inst : v_inst (j_vote j) = v_inst v;
  vj_supp : v_supp (j_vote j) = v_supp v;
  vj_wellformed : cvalid (v_value (j_vote j)) = true;
  (* the prescribed step, round and value *)
  vj_shape :
    ((v_phase v = 2 \/ v_phase v = 3) /\ v_round (j_vote j) = sub_u64 (v_round v) 1 /\
       ((v_phase (j_vote j) = 4 /\ ck (v_value (j_vote j)) = 0) \/ (v_phase (j_vote j) = 3 /\ ck (v_value (j_vote j)) = ck (v_value v)))) \/
    (v_phase v = 4 /\ v_round (j_vote j) = v_round v /\ v_phase (j_vote j) = 3 /\ ck (v_value (j_vote j)) = ck (v_value v)) \/
    (v_phase v = 5 /\ v_phase (j_vote j) = 4 /\ ck (v_value (j_vote j)) = ck (v_value v));
  (* a verifying strong-quorum aggregate over exactly that payload *)
  vj_quorum : exists pw keys,
    signers_power (cm_members cmt) (j_signers j) 0 [] = Some (pw, keys) /\ isStrongQuorum pw (cm_total cmt) = true /\
    j_sig j = Some (keys, mkPd net (v_inst (j_vote j)) (v_round (j_vote j)) (v_phase (j_vote j)) (v_supp (j_vote j)) (ck (v_value (j_vote j))))
}.

Record ValidMsg (net : Z) (cmt : committee) (m : gmsg) : Prop := {
  vm_sender : exists mem, lookup_member (cm_members cmt) (g_sender m) = Some mem /\ m_power mem <> 0 /\
      (* the sender's signature verifies over the exact payload *)
      g_sig m = Some (m_key mem, mkPd net (v_inst (g_vote m)) (v_round (g_vote m)) (v_phase (g_vote m)) (v_supp (g_vote m)) (ck (v_value (g_vote m)))) /\
      (v_phase (g_vote m) = 2 -> g_ticket m = Some (mkTk (m_key mem) net (v_inst (g_vote m)) (v_round (g_vote m))));
  vm_wellformed : cvalid (v_value (g_vote m)) = true;
  vm_step : 1 <= v_phase (g_vote m) <= 5 /\
            (v_phase (g_vote m) = 1 -> v_round (g_vote m) = 0 /\ ck (v_value (g_vote m)) <> 0) /\
            (v_phase (g_vote m) = 2 -> v_round (g_vote m) <> 0 /\ ck (v_value (g_vote m)) <> 0) /\
            (v_phase (g_vote m) = 5 -> v_round (g_vote m) = 0 /\ ck (v_value (g_vote m)) <> 0);
  (* a justification is present exactly when required, and then it is a valid one *)
  vm_just : if needs_just (g_vote m) then exists j, g_just m = Some j /\ ValidJust net cmt (g_vote m) j else g_just m = None
}.

Lemma expectation_shape mp mr jp key rd ekey :
  expectation mp mr jp key = Some (rd, ekey) ->
  ((mp = 2 \/ mp = 3) /\ rd = Some (sub_u64 mr 1) /\ ((jp = 4 /\ ekey = 0) \/ (jp = 3 /\ ekey = key))) \/
  (mp = 4 /\ rd = Some mr /\ jp = 3 /\ ekey = key) \/
  (mp = 5 /\ rd = None /\ jp = 4 /\ ekey = key).
Proof.
  unfold expectation.
  destruct (Z.eqb_spec mp 2) as [->|]; [|destruct (Z.eqb_spec mp 3) as [->|]; [|destruct (Z.eqb_spec mp 4) as [->|]; [|destruct (Z.eqb_spec mp 5) as [->|]]]];
    cbn [orb Z.eqb Pos.eqb]; try discriminate;
    destruct (Z.eqb_spec jp 4), (Z.eqb_spec jp 3); intros [= <- <-]; auto 8.
Qed.

Lemma just_sig_ok_inv net cmt j k :
  just_sig_ok net cmt j k = true ->
  exists pw keys,
    signers_power (cm_members cmt) (j_signers j) 0 [] = Some (pw, keys) /\ isStrongQuorum pw (cm_total cmt) = true /\
    j_sig j = Some (keys, mkPd net (v_inst (j_vote j)) (v_round (j_vote j)) (v_phase (j_vote j)) (v_supp (j_vote j)) k).
Proof.
  unfold just_sig_ok. destruct (signers_power _ _ _ _) as [[pw keys]|]; [|discriminate].
  destruct (j_sig j) as [[ks pd]|]; [|now rewrite andb_false_r].
  intros H. apply andb_prop in H. destruct H as [Hq H]. apply andb_prop in H. destruct H as [Hk Hp].
  apply zl_eqb_eq in Hk. apply pd_eqb_eq in Hp. subst. now exists pw, keys.
Qed.

Lemma just_accepts_sound net cmt m j :
  g_just m = Some j -> just_accepts net cmt None m = true -> ValidJust net cmt (g_vote m) j.
Proof.
  intros Hj H. unfold just_accepts in H. rewrite Hj in H. apply andb_prop in H. destruct H as [Hpre H].
  destruct (expectation _ _ _ _) as [[rd ekey]|] eqn:Ex; [|discriminate].
  apply andb_prop in H. destruct H as [H Hs]. apply andb_prop in H. destruct H as [Hr Hk].
  apply Z.eqb_eq in Hk. subst ekey. bsplit. apply expectation_shape in Ex.
  constructor; [congruence|congruence|assumption| |exact (just_sig_ok_inv _ _ _ _ Hs)].
  destruct Ex as [(Hp & -> & Hs')|[(Hp & -> & Hjp & Hek)|(Hp & -> & Hjp & Hek)]].
  - apply Z.eqb_eq in Hr. left. auto.
  - apply Z.eqb_eq in Hr. right; left. auto.
  - right; right. auto.
Qed.

Lemma phase_rules ph rd (bot tk : bool) :
  (if ph =? 1 then (rd =? 0) && negb bot
   else if ph =? 2 then negb (rd =? 0) && negb bot && tk
   else if ph =? 5 then (rd =? 0) && negb bot
   else (ph =? 3) || (ph =? 4)) = true ->
  1 <= ph <= 5 /\ (ph = 1 \/ ph = 2 \/ ph = 5 -> bot = false) /\ (ph = 1 \/ ph = 5 -> rd = 0) /\ (ph = 2 -> rd <> 0 /\ tk = true).
Proof.
  destruct (Z.eqb_spec ph 1) as [->|]; [|destruct (Z.eqb_spec ph 2) as [->|]; [|destruct (Z.eqb_spec ph 5) as [->|]]]; intros H.
  4: apply orb_prop in H; destruct H as [H|H]; apply Z.eqb_eq in H; repeat split; lia.
  all: bsplit; repeat split; auto; lia.
Qed.

Theorem accepts_sound net cmt m : accepts net cmt None m = true -> ValidMsg net cmt m.
Proof.
  unfold accepts. destruct (lookup_member (cm_members cmt) (g_sender m)) as [mem|] eqn:El; [|discriminate]. cbv zeta.
  fold (needs_just (g_vote m)). intros H.
  apply andb_prop in H. destruct H as [H Hj]. apply andb_prop in H. destruct H as [H Hsig].
  apply andb_prop in H. destruct H as [H Hph]. apply andb_prop in H. destruct H as [Hpw Hcv].
  apply phase_rules in Hph. destruct Hph as (S1 & Sb & S0 & S2). unfold ch_is_zero in Sb.
  destruct (g_sig m) as [[k pd]|] eqn:Es; [|discriminate]. bsplit.
  match goal with H : pd_eqb _ _ = true |- _ => apply pd_eqb_eq in H end. subst k pd.
  constructor.
  - exists mem. split; [exact El|]. split; [assumption|]. split; [exact Es|]. intros P2.
    destruct (S2 P2) as [_ Ht]. destruct (g_ticket m) as [[tk tn ti tr]|]; [|discriminate]. cbn in Ht. bsplit. congruence.
  - exact Hcv.
  - split; [exact S1|]. split; [|split]; intros P.
    + split; [apply S0; tauto|apply Z.eqb_neq, Sb; tauto].
    + split; [apply (S2 P)|apply Z.eqb_neq, Sb; tauto].
    + split; [apply S0; tauto|apply Z.eqb_neq, Sb; tauto].
  - destruct (needs_just (g_vote m)).
    + destruct (g_just m) as [j|] eqn:Ej; [|unfold just_accepts in Hj; rewrite Ej in Hj; discriminate].
      exists j. split; [reflexivity|apply just_accepts_sound; assumption].
    + destruct (g_just m); [discriminate|reflexivity].
Qed.

Lemma just_sig_ok_set_value net cm j y k : just_sig_ok net cm (set_just_value j y) k = just_sig_ok net cm j k.
Proof. reflexivity. Qed.

Lemma expectation_key mp mr jp key rd ekey :
  expectation mp mr jp key = Some (rd, ekey) -> (jp = 4 /\ (mp = 2 \/ mp = 3) /\ ekey = 0) \/ ekey = key.
Proof.
  intros H. apply expectation_shape in H.
  destruct H as [(Hp & _ & [[A B]|[A B]])|[(Hp & _ & A & B)|(Hp & _ & A & B)]]; auto.
Qed.

(* FullyValidateMessage's abbreviated table; the condition of inferJustificationVoteValue *)
Definition fv_exp (v : vote) (jp : Z) : option chainv :=
  if (v_phase v =? 2) || (v_phase v =? 3) then
    (if jp =? 4 then Some zero_chain else if jp =? 3 then Some (v_value v) else None)
  else if v_phase v =? 4 then (if jp =? 3 then Some (v_value v) else None)
  else if v_phase v =? 5 then (if jp =? 4 then Some (v_value v) else None)
  else None.
Definition infer_cond (mp jp : Z) : bool := (((mp =? 2) || (mp =? 3) || (mp =? 4)) && (jp =? 3)) || ((mp =? 5) && (jp =? 4)).

(* the abbreviated table is the key column of the full one *)
Lemma fv_exp_key v jp :
  option_map ck (fv_exp v jp) = option_map snd (expectation (v_phase v) (v_round v) jp (ck (v_value v))).
Proof.
  unfold fv_exp, expectation.
  destruct ((v_phase v =? 2) || (v_phase v =? 3)); [destruct (jp =? 4), (jp =? 3); reflexivity|].
  destruct (v_phase v =? 4); [destruct (jp =? 3); reflexivity|].
  destruct (v_phase v =? 5); [destruct (jp =? 4); reflexivity|reflexivity].
Qed.
(* inferred exactly where the table demands the message's own key *)
Lemma infer_key mp mr jp key rd ek : expectation mp mr jp key = Some (rd, ek) -> ek = if infer_cond mp jp then key else 0.
Proof.
  intros H. apply expectation_shape in H. unfold infer_cond.
  destruct H as [([-> | ->] & _ & [[-> ->]|[-> ->]])|[(-> & _ & -> & ->)|(-> & _ & -> & ->)]]; reflexivity.
Qed.

(* partial validation sees a message up to its two chain values (skel) and their well-formedness; one-shot validation
   is partial validation under the message's own key plus the key of the justification value *)
Definition skel (m : gmsg) : gmsg :=
  mkG (g_sender m) (set_value (g_vote m) zero_chain) (g_sig m) (g_ticket m)
      (option_map (fun j => set_just_value j zero_chain) (g_just m)).
Definition jvalid (m : gmsg) : bool := match g_just m with Some j => cvalid (v_value (j_vote j)) | None => true end.
Definition jkeyb (m : gmsg) : bool :=
  match g_just m with
  | Some j => match expectation (v_phase (g_vote m)) (v_round (g_vote m)) (v_phase (j_vote j)) (ck (v_value (g_vote m))) with
              | Some (_, ek) => ck (v_value (j_vote j)) =? ek | None => false end
  | None => true end.

Lemma skel_frame m m' :
  skel m = skel m' -> v_inst (g_vote m) = v_inst (g_vote m') /\ forall p lb, by_progress p lb m = by_progress p lb m'.
Proof.
  intros E. change (v_inst (g_vote (skel m)) = v_inst (g_vote (skel m')) /\ forall p lb, by_progress p lb (skel m) = by_progress p lb (skel m')).
  now rewrite E.
Qed.

Lemma accepts_skel net cm k m :
  accepts net cm (Some k) m = accepts net cm (Some k) (skel m) && cvalid (v_value (g_vote m)) && jvalid m.
Proof.
  unfold accepts, just_accepts, jvalid, skel. cbn [g_sender g_vote g_sig g_ticket g_just set_value v_inst v_round v_phase v_supp v_value cvalid zero_chain].
  destruct (lookup_member _ _) as [mem|]; [|reflexivity].
  destruct (negb (m_power mem =? 0)); [|reflexivity].
  destruct (cvalid (v_value (g_vote m))); [|now rewrite !andb_false_r]. cbn [andb]. rewrite andb_true_r.
  match goal with |- ?a && ?b && ?c = _ => destruct a; [|reflexivity]; destruct b; [|reflexivity] end. cbn [andb].
  destruct (g_just m) as [j|]; cbn [option_map]; [|now rewrite andb_true_r].
  match goal with |- (if ?b then _ else _) = _ => destruct b end; [|reflexivity].
  cbn [set_just_value j_vote set_value v_inst v_round v_phase v_supp v_value cvalid j_signers j_sig].
  destruct (_ && (v_supp _ =? _)); [|reflexivity]. cbn [andb].
  destruct (cvalid (v_value (j_vote j))); [|now rewrite andb_false_r].
  destruct (expectation _ _ _ _) as [[rd ek]|]; [|reflexivity]. now rewrite just_sig_ok_set_value, !andb_true_r.
Qed.

Lemma accepts_full net cm m :
  accepts net cm None m = accepts net cm (Some (ck (v_value (g_vote m)))) m && jkeyb m.
Proof.
  unfold accepts, just_accepts, jkeyb, ch_is_zero.
  destruct (lookup_member _ _) as [mem|]; [|reflexivity].
  destruct (negb (m_power mem =? 0)); [|reflexivity].
  destruct (cvalid (v_value (g_vote m))); [|reflexivity]. cbn [andb].
  match goal with |- ?a && ?b && ?c = _ => destruct a; [|reflexivity]; destruct b; [|reflexivity] end. cbn [andb].
  destruct (g_just m) as [j|]; [|now rewrite andb_true_r].
  match goal with |- (if ?b then _ else _) = _ => destruct b end; [|reflexivity].
  destruct (_ && cvalid _); [|reflexivity]. cbn [andb].
  destruct (expectation _ _ _ _) as [[rd ek]|]; [|now rewrite andb_false_r].
  destruct (match rd with Some r => _ | None => true end); [|reflexivity]. cbn [andb].
  destruct (_ =? ek); [now rewrite andb_true_r|now rewrite andb_false_r].
Qed.

Definition jkey_is (m : gmsg) (f : just -> option Z) : Prop :=
  match g_just m with None => True | Some j => f j = Some (ck (v_value (j_vote j))) end.

Lemma fully_validate_ok p lb m k :
  fully_validate p lb m k = VOk ->
  cvalid (v_value (g_vote m)) = true /\ k = ck (v_value (g_vote m)) /\ by_progress p lb m = None /\
  jkey_is m (fun j => option_map ck (fv_exp (g_vote m) (v_phase (j_vote j)))).
Proof.
  unfold fully_validate, jkey_is.
  destruct (cvalid (v_value (g_vote m))); cbn [negb]; [|discriminate].
  destruct (Z.eqb_spec k (ck (v_value (g_vote m)))) as [->|]; cbn [negb]; [|discriminate].
  destruct (by_progress p lb m) as [e|] eqn:Ep; [intros ->; now apply by_progress_not_ok in Ep|].
  match goal with |- context [if ?b then VInvalid else _] => destruct b end; [discriminate|].
  destruct (g_just m) as [j|]; [|easy]. cbv zeta. fold (fv_exp (g_vote m) (v_phase (j_vote j))).
  destruct (fv_exp _ _) as [e|]; [|discriminate].
  destruct (Z.eqb_spec (ck (v_value (j_vote j))) (ck e)) as [->|]; [easy|discriminate].
Qed.

Lemma fully_validate_accepted p lb m :
  cvalid (v_value (g_vote m)) = true -> by_progress p lb m = None ->
  jkey_is m (fun j => option_map ck (fv_exp (g_vote m) (v_phase (j_vote j)))) ->
  (ck (v_value (g_vote m)) = 0 -> jkey_is m (fun _ => Some 0)) ->
  fully_validate p lb m (ck (v_value (g_vote m))) = VOk.
Proof.
  unfold fully_validate, jkey_is, ch_is_zero. intros -> -> Hj Hz. rewrite Z.eqb_refl. cbn [negb orb].
  destruct (g_just m) as [j|]; [|now destruct (_ =? 0)].
  cbv zeta. fold (fv_exp (g_vote m) (v_phase (j_vote j))). destruct (fv_exp _ _) as [e|]; [|discriminate]. injection Hj as ->. rewrite Z.eqb_refl.
  destruct (Z.eqb_spec (ck (v_value (g_vote m))) 0) as [E|]; [|reflexivity].
  injection (Hz E) as <-. reflexivity.
Qed.

Lemma jkeyb_fv m : jkey_is m (fun j => option_map ck (fv_exp (g_vote m) (v_phase (j_vote j)))) <-> jkeyb m = true.
Proof.
  unfold jkey_is, jkeyb. destruct (g_just m) as [j|]; [|tauto].
  pose proof (fv_exp_key (g_vote m) (v_phase (j_vote j))) as K.
  destruct (fv_exp _ _) as [e|], (expectation _ _ _ _) as [[rd ek]|]; try discriminate K; cbn in *.
  - injection K as ->. rewrite Z.eqb_eq. split; congruence.
  - split; discriminate.
Qed.

Lemma skel_complete pm k x : skel (complete pm k x) = skel pm.
Proof.
  unfold complete. destruct (k =? 0); [reflexivity|]. unfold skel; cbn. f_equal.
  destruct (g_just pm) as [j|]; [|reflexivity]. now destruct (_ || _).
Qed.
Lemma jvalid_complete pm k x :
  jvalid pm = true -> cvalid (v_value (g_vote (complete pm k x))) = true -> jvalid (complete pm k x) = true.
Proof.
  unfold complete, jvalid. destruct (k =? 0); [easy|]. cbn. destruct (g_just pm) as [j|]; [|easy]. now destruct (_ || _).
Qed.
Lemma strip_key m : snd (strip m) = ck (v_value (g_vote m)).
Proof. unfold strip, ch_is_zero; cbn. destruct (Z.eqb_spec (ck (v_value (g_vote m))) 0); congruence. Qed.
Lemma skel_strip m : skel (fst (strip m)) = skel m.
Proof.
  unfold strip, skel; cbn. f_equal; [now destruct (ch_is_zero _)|].
  destruct (g_just m) as [j|]; [|reflexivity]. now destruct (ch_is_zero _).
Qed.

Lemma accepts_transfer net cm p lb pm k x :
  accepts net cm (Some k) pm = true ->
  fully_validate p lb (complete pm k x) k = VOk ->
  accepts net cm None (complete pm k x) = true.
Proof.
  intros Ha Hf. apply fully_validate_ok in Hf. destruct Hf as (Hcv & Hk & _ & Hj).
  rewrite accepts_skel in Ha. apply andb_prop in Ha. destruct Ha as [Ha Hjv]. apply andb_prop in Ha. destruct Ha as [Ha _].
  rewrite accepts_full, <- Hk, accepts_skel, skel_complete, Ha, Hcv, (jvalid_complete _ _ _ Hjv Hcv).
  apply jkeyb_fv, Hj.
Qed.

Lemma two_stage_ok net cm c p lb pm k x :
  fst (two_stage net (Some cm) c p lb pm k x) = VOk <->
  fst (partially_validate net (Some cm) c p lb pm k) = VOk /\ fully_validate p lb (complete pm k x) k = VOk.
Proof.
  unfold two_stage. destruct (partially_validate _ _ _ _ _ _ _) as [[] c1]; cbn; split; (tauto || (intros [? _]; discriminate) || discriminate).
Qed.

Theorem two_stage_sound net cmts cm c p lb pm k x :
  CacheOK net cmts c -> cmts (v_inst (g_vote pm)) = Some cm ->
  fst (two_stage net (Some cm) c p lb pm k x) = VOk ->
  let m' := complete pm k x in
  k = ck (v_value (g_vote m')) /\ fst (validate_message net (Some cm) cache_empty p lb m') = VOk.
Proof.
  intros HC Hcm H. apply two_stage_ok in H. destruct H as [Hp Hf].
  apply (gated_ok net cmts cm c) in Hp; [|assumption..]. destruct Hp as [_ Ha].
  pose proof (accepts_transfer net cm p lb pm k x Ha Hf) as Hacc. apply fully_validate_ok in Hf. destruct Hf as (_ & Hk & Hbp & _).
  destruct (skel_frame _ _ (skel_complete pm k x)) as [Ei _].
  split; [exact Hk|]. apply (gated_ok net cmts cm); [apply CacheOK_empty|now rewrite Ei|now split].
Qed.

Definition wf_chain (c : chainv) : Prop := ck c = 0 -> c = zero_chain.

Lemma chainv_eq a b : ck a = ck b -> cvalid a = true -> cvalid b = true -> a = b.
Proof. destruct a, b; cbn; congruence. Qed.

Lemma jkeyb_zero m : jkeyb m = true -> ck (v_value (g_vote m)) = 0 -> jkey_is m (fun _ => Some 0).
Proof.
  unfold jkeyb, jkey_is. destruct (g_just m) as [j|]; [|easy].
  destruct (expectation _ _ _ _) as [[rd ek]|] eqn:Ex; [|discriminate]. apply infer_key in Ex.
  rewrite Z.eqb_eq. intros -> E0. destruct (infer_cond _ _); congruence.
Qed.

Theorem strip_complete_id net cm m :
  accepts net cm None m = true ->
  wf_chain (v_value (g_vote m)) -> (forall j, g_just m = Some j -> wf_chain (v_value (j_vote j))) ->
  complete (fst (strip m)) (snd (strip m)) (v_value (g_vote m)) = m.
Proof.
  rewrite accepts_full, accepts_skel. intros H _ _.
  apply andb_prop in H. destruct H as [H Hk]. apply andb_prop in H. destruct H as [H Hjv]. apply andb_prop in H. destruct H as [_ Hcv].
  pose proof (jkeyb_zero m Hk) as Hz.
  unfold jkeyb, jvalid, jkey_is in *. rewrite strip_key. unfold complete, strip, ch_is_zero in *.
  destruct m as [s [vi vr vp vs vv] sg tk oj]; cbn in *.
  destruct (Z.eqb_spec (ck vv) 0) as [E0|N0]; cbn.
  - (* a vote for bottom: nothing is stripped; a justification is for bottom too *)
    f_equal. destruct oj as [j|]; [|reflexivity]. injection (Hz E0) as <-. reflexivity.
  - (* the justification value is bottom and left alone, or the vote's: stripped and inferred back *)
    f_equal. destruct oj as [[[ji jr jp js jv] sgn jsig]|]; [|reflexivity]. cbn in *.
    destruct (expectation _ _ _ _) as [[rd ek]|] eqn:Ex; [|discriminate]. apply infer_key in Ex. apply Z.eqb_eq in Hk.
    fold (infer_cond vp jp) in Ex.
    destruct (Z.eqb_spec (ck jv) 0); cbn; fold (infer_cond vp jp); destruct (infer_cond vp jp); try congruence.
    now rewrite (chainv_eq jv vv) by congruence.
Qed.

Lemma accepts_strip net cm m :
  accepts net cm None m = true -> accepts net cm (Some (snd (strip m))) (fst (strip m)) = true.
Proof.
  rewrite accepts_full, strip_key, (accepts_skel _ _ _ m), (accepts_skel _ _ _ (fst (strip m))), skel_strip.
  intros H. repeat (apply andb_prop in H; destruct H as [H ?]). rewrite H. cbn [andb].
  apply andb_true_intro. unfold strip, jvalid in *; cbn. split; [now destruct (ch_is_zero _)|].
  destruct (g_just m) as [j|]; [|reflexivity]. now destruct (ch_is_zero _).
Qed.

Theorem two_stage_complete net cmts cm c p lb m :
  CacheOK net cmts c -> cmts (v_inst (g_vote m)) = Some cm ->
  accepts net cm None m = true -> by_progress p lb m = None ->
  wf_chain (v_value (g_vote m)) -> (forall j, g_just m = Some j -> wf_chain (v_value (j_vote j))) ->
  fst (two_stage net (Some cm) c p lb (fst (strip m)) (snd (strip m)) (v_value (g_vote m))) = VOk.
Proof.
  intros HC Hcm Ha Hp Hw Hwj. destruct (skel_frame _ _ (skel_strip m)) as [Ei Ep].
  apply two_stage_ok. split.
  - apply (gated_ok net cmts cm c); [exact HC|now rewrite Ei|].
    split; [now rewrite Ep|apply accepts_strip; exact Ha].
  - rewrite (strip_complete_id net cm m Ha Hw Hwj), strip_key.
    rewrite accepts_full, accepts_skel in Ha. repeat (apply andb_prop in Ha; destruct Ha as [Ha ?]).
    apply fully_validate_accepted; [assumption|assumption|now apply jkeyb_fv|now apply jkeyb_zero].
Qed.
