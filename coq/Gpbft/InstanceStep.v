(* Layer N: invariants of error-free states through one step and along runs, the walk done once for all of them.
   To add an invariant Q: prove the fields of `StepInvOn A Q S okm oke` (one model function each; A = the invariants Q's
   proofs lean on), join it to a step invariant for A by StepInv_and, get step and run from Post_step / Post_run.  Runs
   begin at `started` (InstanceConverge.v): prove Q (started input now) separately. *)
From Coq Require Import ZArith List Bool Lia.
From F3 Require Import Instance InstanceOrder.
Import ListNotations.
Open Scope Z_scope.

Section Cfg.
Variable c : config.

(* P of the state with m recorded; a message that cannot be recorded raises an error outside S *)
Definition absorbs (P : inst -> Prop) (S : ierr -> Prop) (i : inst) (m : msg) : Prop :=
  let r := m_round m in let rs := get_round i r in
  match m_phase m with
  | QUALITY => P (set_round_state (set_quality i (q_receive_prefixes c (i_quality i) (m_sender m) (m_value m))) r rs)
  | CONVERGE => match c_receive (r_conv rs) (m_sender m) (m_value m) (m_rank m) (m_just m) with
                | Some cs => P (set_round_state i r (mkR cs (r_prep rs) (r_comm rs)))
                | None => ~ S EConvergeMsg end
  | PREPARE => P (set_round_state i r (mkR (r_conv rs) (prep_update c (r_prep rs) (m_sender m) (m_value m) (m_just m)) (r_comm rs)))
  | COMMIT => P (set_round_state i r (mkR (r_conv rs) (r_prep rs) (comm_update c (r_comm rs) (m_sender m) (m_value m) (m_just m))))
  | DECIDE => P (set_round_state (set_decision i (q_receive c (i_decision i) (m_sender m) (m_value m))) r rs)
  | INITIAL | TERMINATED => ~ S EPhase
  end.
Lemma absorbs_and (P Q : inst -> Prop) S1 S2 i m :
  absorbs P S1 i m -> absorbs Q S2 i m -> absorbs (fun x => P x /\ Q x) (fun e => S1 e \/ S2 e) i m.
Proof.
  unfold absorbs. cbv zeta. destruct (m_phase m); try (intros H1 H2; split; assumption); try (intros H1 H2 [H|H]; auto).
  destruct (c_receive _ _ _ _ _); [intros H1 H2; split; assumption|intros H1 H2 [H|H]; auto].
Qed.

(* okm, oke: assumed of delivered messages, of events; A: invariants assumed alongside P.  Field by call site: *)
Record StepInvOn (A P : inst -> Prop) (S : ierr -> Prop) (okm : msg -> Prop) (oke : event -> Prop) : Prop := {
  oke_msg : forall now m sw, oke (EvDeliver now m sw) -> okm m;
  (* a second Start *)
  P_restart : forall i now, oke (EvStart now) -> A i -> P i -> i_err i = None -> Post P S (begin_quality c (set_now i now));
  (* set_now at the head of every step *)
  P_quiet : forall i i', quiet i i' -> P i -> P i';
  (* updateCandidatesFromQuality after a late QUALITY message *)
  P_cands : forall i l, incl (i_cands i) l -> (forall x, In x l -> In x (i_cands i) \/ In x (all_prefixes (qlp i))) ->
    A i -> P i -> P (set_cands i l);
  (* alarms, and the reaction to every recorded message *)
  P_tcp : forall i sway, A i -> P i -> i_err i = None -> Post P S (try_current_phase c i sway);
  (* a COMMIT message runs tryCommit for its round, whatever the current phase *)
  P_commit : forall i m sway, okm m -> A i -> P i -> i_err i = None -> phase_code (i_phase i) < 5 ->
    Post P S (try_commit c i (m_round m) sway);
  (* a DECIDE message reaching an instance not yet in DECIDE; no error can arise *)
  P_skipd : forall i m, okm m -> m_phase m = DECIDE -> A i -> P i -> phase_code (i_phase i) < 5 ->
    P (skip_to_decide i (m_value m) (m_just m));
  (* postReceive *)
  P_skip : forall i round w, A i -> P i -> i_err i = None -> i_round i < round -> i_phase i <> DECIDE -> i_phase i <> TERMINATED ->
    c_find_best (r_conv (get_round i round)) (fun _ => true) = Some w -> Post P S (skip_to_round c i round (cv_chain w) (cv_just w));
  P_absorb : forall i m, A i -> P i -> i_err i = None -> okm m -> absorbs P S i m }.
Definition StepInv := StepInvOn (fun _ => True).

Lemma StepInv_and (A A' P Q : inst -> Prop) S1 S2 okm oke :
  (forall i, A i -> P i -> A' i) -> StepInvOn A P S1 okm oke -> StepInvOn A' Q S2 okm oke ->
  StepInvOn A (fun i => P i /\ Q i) (fun e => S1 e \/ S2 e) okm oke.
Proof.
  intros HA SP SQ. constructor.
  - exact (oke_msg _ _ _ _ _ SP).
  - intros i now Ho Ha [Hp Hq] He. apply Post_and; [apply (P_restart _ _ _ _ _ SP)|apply (P_restart _ _ _ _ _ SQ)]; auto.
  - intros i i' Hqt [Hp Hq]. split; [exact (P_quiet _ _ _ _ _ SP i i' Hqt Hp)|exact (P_quiet _ _ _ _ _ SQ i i' Hqt Hq)].
  - intros i l Hl U Ha [Hp Hq]. split; [apply (P_cands _ _ _ _ _ SP)|apply (P_cands _ _ _ _ _ SQ)]; auto.
  - intros i sw Ha [Hp Hq] He. apply Post_and; [apply (P_tcp _ _ _ _ _ SP)|apply (P_tcp _ _ _ _ _ SQ)]; auto.
  - intros i m sw Hm Ha [Hp Hq] He Hlt. apply Post_and; [apply (P_commit _ _ _ _ _ SP)|apply (P_commit _ _ _ _ _ SQ)]; auto.
  - intros i m Hm Ep Ha [Hp Hq] Hlt. split; [apply (P_skipd _ _ _ _ _ SP)|apply (P_skipd _ _ _ _ _ SQ)]; auto.
  - intros i round w Ha [Hp Hq] He Hr Hd Ht Hb. apply Post_and; [apply (P_skip _ _ _ _ _ SP)|apply (P_skip _ _ _ _ _ SQ)]; auto.
  - intros i m Ha [Hp Hq] He Hm. apply absorbs_and; [apply (P_absorb _ _ _ _ _ SP)|apply (P_absorb _ _ _ _ _ SQ)]; auto.
Qed.
Lemma StepInv_weaken (A A' P : inst -> Prop) (S S' : ierr -> Prop) (okm okm' : msg -> Prop) (oke oke' : event -> Prop) :
  (forall i, A' i -> A i) -> (forall e, S' e -> S e) -> (forall m, okm' m -> okm m) -> (forall e, oke' e -> oke e) ->
  (forall now m sw, oke' (EvDeliver now m sw) -> okm' m) ->
  StepInvOn A P S okm oke -> StepInvOn A' P S' okm' oke'.
Proof.
  intros HA HS Hm He Hem SP. constructor.
  - exact Hem.
  - intros. apply (Post_weaken _ S); [exact HS|]. apply (P_restart _ _ _ _ _ SP); auto.
  - exact (P_quiet _ _ _ _ _ SP).
  - intros. apply (P_cands _ _ _ _ _ SP); auto.
  - intros. apply (Post_weaken _ S); [exact HS|]. apply (P_tcp _ _ _ _ _ SP); auto.
  - intros. apply (Post_weaken _ S); [exact HS|]. apply (P_commit _ _ _ _ _ SP); auto.
  - intros. apply (P_skipd _ _ _ _ _ SP); auto.
  - intros. apply (Post_weaken _ S); [exact HS|]. apply (P_skip _ _ _ _ _ SP); auto.
  - intros i m Ha Hp Herr Hok. pose proof (P_absorb _ _ _ _ _ SP i m (HA i Ha) Hp Herr (Hm m Hok)) as H. revert H.
    unfold absorbs. cbv zeta. destruct (m_phase m); auto. destruct (c_receive _ _ _ _ _); auto.
Qed.

Section PostStep.
Variables (P : inst -> Prop) (S : ierr -> Prop) (okm : msg -> Prop) (oke : event -> Prop).
Hypothesis SI : StepInv P S okm oke.

Lemma Post_receive_one i m sway : P i -> i_err i = None -> okm m -> Post P S (fst (receive_one c i m sway)).
Proof.
  intros HP He Hm. pose proof (P_absorb _ _ _ _ _ SI i m I HP He Hm) as Ha. unfold absorbs in Ha. cbv zeta in Ha.
  apply receive_one_cases; cbv zeta.
  - apply Post_none; assumption.
  - intros Ep Ec. rewrite Ep, Ec in Ha. apply Post_fail; assumption.
  - intros [Ep|Ep]; rewrite Ep in Ha; apply Post_fail; assumption.
  - intros Ep _. rewrite Ep in Ha. split; intros _; [|apply (P_tcp _ _ _ _ _ SI); [exact I|exact Ha|exact He]].
    unfold update_candidates_from_quality. match goal with |- context [add_candidate_prefixes ?x ?p] => destruct (acp_nf x p) as (l & A & _ & -> & U) end.
    apply Post_none; [apply (P_cands _ _ _ _ _ SI); auto|exact He].
  - intros Ep _ cs Ec. rewrite Ep, Ec in Ha. apply (P_tcp _ _ _ _ _ SI); auto.
  - intros Ep _. rewrite Ep in Ha. apply (P_tcp _ _ _ _ _ SI); auto.
  - intros Ep Ht. rewrite Ep in Ha. split; intros Hd; [apply (P_tcp _ _ _ _ _ SI); auto|].
    destruct (P_commit _ _ _ _ _ SI _ m sway Hm I Ha He) as [A B]; [apply phase_lt5; assumption|].
    split; [split; assumption|]. intros E2 _ _. apply (P_tcp _ _ _ _ _ SI); [exact I|exact (A E2)|exact E2].
  - intros Ep Ht. rewrite Ep in Ha. split; intros Hd; apply (P_tcp _ _ _ _ _ SI); try exact He; try exact I; [exact Ha|].
    apply (P_skipd _ _ _ _ _ SI); [exact Hm|exact Ep|exact I|exact Ha|apply phase_lt5; assumption].
Qed.

Lemma Post_post_receive i round : P i -> i_err i = None -> i_phase i <> TERMINATED -> Post P S (post_receive c i round).
Proof. intros HP He Ht. apply post_receive_cases; intros; [apply Post_none; assumption|apply (P_skip _ _ _ _ _ SI); auto]. Qed.

Lemma Post_step i e : Inv i -> wfe e -> oke e -> P i -> i_err i = None -> Post P S (step c i e).
Proof.
  intros HI Hw Hok HP He.
  assert (P0 : forall now, P (set_now i now)) by (intros now; apply (P_quiet _ _ _ _ _ SI i); [apply quiet_now|exact HP]).
  destruct e as [now|now m sway|now sway]; cbn [step]; cbv zeta.
  - apply (P_restart _ _ _ _ _ SI); auto.
  - apply (oke_msg _ _ _ _ _ SI) in Hok. apply deliver_cases; [exact HI|exact Hw| | |]; intros.
    + apply Post_none; [apply P0|exact He].
    + apply Post_receive_one; auto.
    + apply Post_post_receive; try assumption. apply (Post_receive_one (set_now i now) m sway); auto.
  - apply (P_tcp _ _ _ _ _ SI); auto.
Qed.

(* run_hist clears the outputs between two steps; not a field: RefineNode's Ev does not survive it *)
Definition clears : Prop := forall x, P x -> P (clear_out x).
Lemma Post_run evs i : clears -> Inv i -> Post P S i -> Forall (fun e => wfe e /\ oke e) evs ->
  Post P S (snd (run_hist c i evs)) /\ Inv (snd (run_hist c i evs)).
Proof.
  intros Hclr. apply run_hist_inv; [intros e H; apply H|]. clear i. intros i e HI [HP HN] [Hwe Hoe].
  destruct (step_ordered c (clear_out i) e HI Hwe) as (_ & _ & Hpers & _).
  destruct (i_err i) as [x|] eqn:Ex.
  - (* an error recorded earlier stays *)
    specialize (Hpers x Ex). split; [intros H; congruence|]. intros y Hy. apply HN. congruence.
  - apply Post_step; try assumption. apply Hclr, HP. reflexivity.
Qed.
End PostStep.

End Cfg.
