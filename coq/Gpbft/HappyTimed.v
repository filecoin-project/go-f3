(* The synchrony hypothesis of the happy path as a TIME BOUND (C02 second sentence, C06 timely corner).
   HappyNet / HappyLive assume of every delivery that it "reaches its receiver before the receiver's current phase timer
   expires".  Here that is derived from clock values: let B be the smaller of the QUALITY timeout and the round-0 phase
   timeout.  If every delivery to member k happens at a time t with  S_k <= t < S_k + B  (S_k = the time k started) --
   e.g. because all members start within sigma, every message takes at most delta and sigma + 4 delta < B -- then no phase
   timer of k has expired when a message arrives: every phase timer of round 0 is set to (the time of the event that
   began the phase) + (its timeout) >= S_k + B. *)
From Coq Require Import ZArith List Bool Lia.
From F3 Require Import QuorumGen Instance InstanceOrder InstanceDecide InstanceNoPanic HappyInst HappyStep Refine RefineNet HappyNet HappyLive.
Import ListNotations.
Open Scope Z_scope.

Section Timed.
Variable c : config.
Variable v : chain.
Hypothesis Hv : (2 <= length v)%nat.
Hypothesis Hcw : committee_wf c.
Hypothesis Hrr : 0 <= c_rebro_round c.

Local Notation shape := (shape c v).
Definition D0 : Z := nthZ (c_timeouts c) 0.
Definition Bnd : Z := Z.min (c_quality_timeout c) D0.

Definition PT (i i' : inst) : Prop :=
  i_now i' = i_now i /\ (i_ptimeout i' = i_ptimeout i \/ i_ptimeout i' = i_now i + D0).
Lemma PT_refl i : PT i i. Proof. split; [reflexivity|left; reflexivity]. Qed.
Lemma PT_trans a b d : PT a b -> PT b d -> PT a d.
Proof. intros (A1 & A2) (B1 & B2). split; [congruence|]. destruct B2 as [B2|B2]; [rewrite B2; exact A2|right; rewrite B2, A1; reflexivity]. Qed.

Lemma PT_try_rebroadcast i : PT i (try_rebroadcast c i).
Proof.
  pose proof (hview_try_rebroadcast c i) as V. unfold hview in V. injection V as _ _ _ _ _ _ _ _ E9 _ E11 _.
  split; [exact E11|left; exact E9].
Qed.

Lemma PT_hmove p i i' : i_round i = 0 -> hmove c v p i i' -> PT i i'.
Proof. intros Hr [(_ & _ & _ & _ & _ & En) _ _ Pt _ _]. rewrite Hr in Pt. split; [exact En|exact Pt]. Qed.

Lemma PT_try_current_phase i sway : shape i -> okt i -> i_err i = None -> i_err (try_current_phase c i sway) = None -> PT i (try_current_phase c i sway).
Proof.
  intros S Hk _ He. destruct (try_current_phase_happy c v Hv Hcw Hrr i sway S Hk He) as [([-> | ->] & _)|(_ & M)].
  - apply PT_refl.
  - apply PT_try_rebroadcast.
  - exact (PT_hmove _ _ _ (sh_round c v i S) M).
Qed.


Lemma PT_receive_one i m sway : shape i -> okt i -> vmsg v m -> i_err i = None ->
  i_err (fst (receive_one c i m sway)) = None -> PT i (fst (receive_one c i m sway)).
Proof.
  intros S Hk Hm He0 He. destruct (phase_eqb (i_phase i) TERMINATED) eqn:Et; [apply phase_eqb_true in Et; rewrite (receive_one_terminated c i m sway Et); apply PT_refl|].
  apply phase_eqb_false in Et. rewrite (receive_one_happy c v Hv i m sway Hm (sh_round c v i S) Et) in *. cbv zeta in *.
  pose proof (shape_record c v Hv i m S) as S1. pose proof (okt_record c v i m Hk) as K1.
  destruct (record_view c v i m) as (N1 & T1 & _ & E1 & _). rewrite He0 in E1.
  set (i1 := record c v i m) in *. assert (P1 : PT i i1) by (split; [exact N1|left; exact T1]).
  assert (Ex : forall i2, shape i2 -> okt i2 -> i_err i2 = None -> PT i i2 -> i_err (try_current_phase c i2 sway) = None ->
            PT i (try_current_phase c i2 sway)).
  { intros i2 S2 K2 E2 P2 He2. exact (PT_trans _ _ _ P2 (PT_try_current_phase i2 sway S2 K2 E2 He2)). }
  destruct Hm as (_ & _ & [Hp|[Hp|[Hp|Hp]]]); rewrite Hp in *.
  - destruct (phase_eqb (i_phase i) QUALITY); [apply Ex; assumption|].
    unfold update_candidates_from_quality. destruct (acp_nf i1 (q_longest_prefix (i_quality i1) (i_input i1))) as (cs & _ & _ & -> & _). exact P1.
  - apply Ex; assumption.
  - destruct (phase_eqb (i_phase i) DECIDE) eqn:Ed; [apply Ex; assumption|]. apply phase_eqb_false in Ed.
    set (i2 := try_commit c i1 0 sway) in *.
    assert (E2 : i_err i2 = None).
    { destruct (i_err i2) eqn:E; [|reflexivity]. cbn [andb] in He. rewrite E in He. discriminate He. }
    destruct (try_commit_record c v Hv Hcw Hrr i m sway S Hk Ed Et E2) as [(E & _)|M].
    + fold i1 in E. fold i2 in E. rewrite E in *. destruct (_ && _ && _); [apply Ex; assumption|exact P1].
    + fold i1 in M. fold i2 in M. replace (phase_eqb (i_phase i2) PREPARE) with false in * by (rewrite (hm_ph _ _ _ _ _ M); reflexivity).
      rewrite andb_false_r in *. cbn [andb] in *. exact (PT_trans _ _ _ P1 (PT_hmove _ _ _ (sh_round c v _ S1) M)).
  - destruct (phase_eqb (i_phase i) DECIDE) eqn:Ed; [apply Ex; assumption|].
    pose proof (hmove_skip_to_decide c v i1 (m_just m)) as M.
    apply Ex; [exact (shape_skip_to_decide c v i1 _ S1)|right; left; exact (hm_ph _ _ _ _ _ M)|exact E1
              |exact (PT_trans _ _ _ P1 (PT_hmove _ _ _ (sh_round c v _ S1) M))|exact He].
Qed.

Theorem step_timer i now m sway : shape i -> okt (set_now i now) -> vmsg v m -> i_err i = None ->
  i_err (step c i (EvDeliver now m sway)) = None ->
  let i' := step c i (EvDeliver now m sway) in
  i_ptimeout i' = i_ptimeout i \/ i_ptimeout i' = now + D0.
Proof.
  intros S Hk Hm He0 He. cbv zeta. destruct (step_deliver_happy c v Hv Hcw Hrr i now m sway S Hk Hm He) as (-> & E1).
  exact (proj2 (PT_receive_one (set_now i now) m sway (shape_set_now c v i now S) Hk Hm He0 E1)).
Qed.
End Timed.

Section NetT.
Variable c : config.
Variable honest : nat -> bool.
Variable input : nat -> chain.
Variable v : chain.
Hypothesis Hwf : committee_wf c.
Hypothesis Hscaled : c_total c <= 65535.
Hypothesis Hrr : 0 <= c_rebro_round c.
Hypothesis Hv : (2 <= length v)%nat.
Hypothesis Hunanimous : forall k, honest k = true -> input k = v.
Variable st : Z -> Z.   (* when each member starts *)

Local Notation NI := (NI c honest input).
Local Notation HN := (HN c honest v).
Local Notation member := (member c honest).
Local Notation B := (Bnd c).

(* the timing of a schedule: only starts and deliveries; member k starts at st k; every delivery to k happens at a clock
   reading in [st k, st k + B) *)
Definition timed_act (a : action) : Prop :=
  match a with
  | AStart k now => now = st k
  | ADeliver k now _ _ => st k <= now < st k + B
  | _ => False
  end.
Fixpoint all_timed (acts : list action) : Prop := match acts with [] => True | a :: r => timed_act a /\ all_timed r end.

Definition early (p : phase) : Prop := p = QUALITY \/ p = PREPARE \/ p = COMMIT.
(* every running phase timer of a started member lies at or beyond (its start + B) *)
Definition TI (n : net) : Prop :=
  forall k, member k -> i_phase (n_inst n k) <> INITIAL -> early (i_phase (n_inst n k)) -> st k + B <= i_ptimeout (n_inst n k).


Lemma TI_node_step n k e : TI n ->
  (early (i_phase (step c (clear_out (n_inst n k)) e)) -> st k + B <= i_ptimeout (step c (clear_out (n_inst n k)) e)) -> TI (node_step c n k e).
Proof.
  intros HT H k' Hm' Hp' He'. rewrite n_inst_node_step in *. destruct (Z.eqb_spec k' k) as [->|Hne]; [exact (H He')|exact (HT k' Hm' Hp' He')].
Qed.

Lemma TI_step n a : NI n -> HN n -> TI n -> aok c honest n a -> timed_act a -> happy_act n a /\ TI (nstep c n a).
Proof.
  intros HNI (HV & HS) HT Hok Ht. destruct a as [k now|k now m sway|k now sway|x]; cbn [timed_act] in Ht; try contradiction; cbn [nstep].
  - split; [exact I|]. destruct Hok as (Hm & Hph). apply TI_node_step; [exact HT|]. intros _.
    destruct (proj2 HNI k Hm) as (_ & Hnew & _). rewrite (Hnew Hph).
    cbn [step]. unfold begin_quality, new_instance, clear_out, set_now. cbn. subst now. unfold Bnd. lia.
  - pose proof Hok as (Hm & Hph & Hadm). pose proof (HS k Hm Hph) as S0.
    assert (Hokt : okt (set_now (clear_out (n_inst n k)) now)).
    { pose proof (sh_phase c v _ S0) as Vp. unfold okt, timely. cbn [set_now clear_out i_now i_ptimeout i_phase].
      destruct Vp as [Vp|[Vp|[Vp|[Vp|Vp]]]]; try (right; left; exact Vp); try (right; right; exact Vp);
        (left; pose proof (HT k Hm Hph) as H; unfold early in H; rewrite Vp in H; specialize (H ltac:(auto)); lia). }
    split; [exact Hokt|]. apply TI_node_step; [exact HT|]. intros He'.
    destruct (net_deliver c honest input v Hwf Hv Hunanimous n k now m sway HNI (conj HV HS) Hok) as (S1 & Hvm & He0 & He & _).
    destruct (step_timer c v Hv Hwf Hrr _ now m sway S1 Hokt Hvm He0 He) as [TM|TM]; [|rewrite TM; unfold Bnd; lia].
    rewrite TM. apply (HT k Hm Hph).
    (* the timer was kept: the member was in an early phase before as well *)
    destruct (step_effect c v Hv Hwf Hrr _ now m sway S1 Hokt Hvm He0 He) as [(_ & _ & C & _)|(_ & _ & _ & D)].
    + rewrite C in He'. destruct He' as [H|[H|H]]; discriminate H.
    + destruct (stepped_cases c v _ _ _ D) as [(P & _)|(Lt & A)]; [rewrite P in He'; exact He'|].
      destruct He' as [H|[H|H]]; rewrite H in Lt, A; [destruct A| |right; left; exact (proj1 A)].
      left. destruct (sh_phase c v _ S0) as [Vp|[Vp|[Vp|[Vp|Vp]]]]; [exact Vp|..]; cbn [clear_out i_phase] in Lt; rewrite Vp in Lt; cbn in Lt; lia.
Qed.

Lemma TI_net0 : TI (net0 input).
Proof. intros k _ Hp. cbn in Hp. congruence. Qed.

Theorem timed_is_happy acts : forall n, NI n -> HN n -> TI n -> all_ok c honest n acts -> all_timed acts -> all_happy c n acts.
Proof.
  induction acts as [|a acts IH]; intros n HNI HHN HT Hok Ht; cbn [all_happy]; [exact I|].
  destruct Hok as (Hok & Hrest). destruct Ht as (Ht & Htrest).
  destruct (TI_step n a HNI HHN HT Hok Ht) as (Hh & HT').
  split; [exact Hh|]. apply IH; [apply (NI_step c honest input Hwf Hscaled (Hinput honest input v Hv Hunanimous)); assumption
                                |apply (happy_step c honest input v Hwf Hrr Hv Hunanimous); assumption|exact HT'|exact Hrest|exact Htrest].
Qed.

Theorem timed_votes acts x : all_ok c honest (net0 input) acts -> all_timed acts ->
  In x (n_votes (nrun c (net0 input) acts)) -> Spec.round x = 0%nat /\ Spec.vl x = Some v /\ Spec.ph x <> Spec.CONVERGE.
Proof.
  intros Hok Ht. apply (happy_votes c honest input v Hwf Hscaled Hrr Hv Hunanimous acts x Hok).
  apply (timed_is_happy acts (net0 input) (NI_net0 c honest input) (HN_net0 c honest input v) TI_net0 Hok Ht).
Qed.

Variable hs : list Z.
Hypothesis Hhs : forall k, member k <-> In k hs.
Hypothesis Hhnd : NoDup hs.
Hypothesis Hhstrong : isStrongQuorum (sum_power c hs) (c_total c) = true.

Theorem timed_all_decide acts :
  all_ok c honest (net0 input) acts -> all_timed acts ->
  let n := nrun c (net0 input) acts in
  (forall k, member k -> i_phase (n_inst n k) <> INITIAL) ->
  (forall k s p, member k -> member s -> four p -> In (voteS s 0 p v) (n_votes n) -> delivered acts k s p) ->
  forall k, member k -> i_phase (n_inst n k) = TERMINATED /\ exists j, i_term (n_inst n k) = Some j /\ j_value j = v.
Proof.
  intros Hok Ht. apply (happy_all_decide c honest input v Hwf Hscaled Hrr Hv Hunanimous hs Hhs Hhnd Hhstrong acts Hok).
  apply (timed_is_happy acts (net0 input) (NI_net0 c honest input) (HN_net0 c honest input v) TI_net0 Hok Ht).
Qed.
End NetT.

(* executable form of the time bound (for the non-vacuity example) *)
Definition timed_actb (c : config) (st : Z -> Z) (a : action) : bool :=
  match a with
  | AStart k now => now =? st k
  | ADeliver k now _ _ => (st k <=? now) && (now <? st k + Bnd c)
  | _ => false
  end.
Lemma all_timedb_sound c st acts : forallb (timed_actb c st) acts = true -> all_timed c st acts.
Proof.
  induction acts as [|a r IH]; intros H; cbn in *; [exact I|]. apply andb_true_iff in H. destruct H as [H1 H2]. split; [|exact (IH H2)].
  destruct a as [k now|k now m sway| |]; cbn in *; try discriminate H1.
  - apply Z.eqb_eq. exact H1.
  - apply andb_true_iff in H1. destruct H1 as [A B]. apply Z.leb_le in A. apply Z.ltb_lt in B. lia.
Qed.
