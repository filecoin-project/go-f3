(* C15 on the consensus-inputs model: what the theorems of Properties/C15.v are made of *)
From Coq Require Import ZArith List Lia.
From F3 Require Import Proposal.
Import ListNotations.
Open Scope Z_scope.

Fixpoint linked (k : Z) (p : list tipset) : Prop :=
  match p with [] => True | x :: r => t_parent x = k /\ linked (t_key x) r end.
Definition last_key (k : Z) (p : list tipset) : Z := t_key (last p (mkT k 0 0 0 0 0 0)).

Lemma get_ts_key e k t : get_ts e k = Some t -> t_key t = k.
Proof.
  induction e as [|x e IH]; cbn; [discriminate|].
  destruct (t_key x =? k) eqn:E; [intros H; injection H as <-; apply Z.eqb_eq; exact E|exact IH].
Qed.

Lemma walk_spec e base : forall fuel cur acc l, walk e base cur fuel acc = COk l ->
  exists q, l = q ++ acc /\ (forall r, linked (t_key cur) r -> linked (t_key base) (q ++ r)) /\
            (q = [] /\ t_key cur = t_key base \/ exists q', q = q' ++ [cur]).
Proof.
  induction fuel as [|f IH]; intros cur acc l H; cbn in H; [discriminate|].
  destruct (Z.eqb_spec (t_key cur) (t_key base)) as [E|_].
  - injection H as <-. exists []. rewrite E. auto.
  - destruct (t_epoch cur <? t_epoch base); [discriminate|].
    destruct (parent_of e cur) as [p|] eqn:Ep; [|discriminate]. apply get_ts_key in Ep.
    destruct (IH p (cur :: acc) l H) as (q & -> & L & _). exists (q ++ [cur]). rewrite <- !app_assoc.
    split; [reflexivity|]. split; [|eauto]. intros r Hr. rewrite <- app_assoc. apply L. cbn. auto.
Qed.

Theorem collect_linked e base head l :
  collect e base head = COk l -> linked (t_key base) l.
Proof.
  unfold collect. destruct (t_epoch head <? t_epoch base); [discriminate|]. intros H.
  destruct (walk_spec _ _ _ _ _ _ H) as (q & -> & L & _). apply L. exact I.
Qed.

Definition is_prefix {A} (a b : list A) : Prop := exists t, b = a ++ t.
Lemma firstn_prefix {A} n (l : list A) : is_prefix (firstn n l) l.
Proof. exists (skipn n l). symmetry. apply firstn_skipn. Qed.
Lemma prefix_trans {A} (a b c : list A) : is_prefix a b -> is_prefix b c -> is_prefix a c.
Proof. intros [t ->] [u ->]. exists (t ++ u). rewrite app_assoc. reflexivity. Qed.

(* the lets are the trimming steps of [proposal] (GetProposal), on any collected chain l0 *)
Lemma trimmed c now (l0 : list tipset) :
  let l1 := if 0 <? c_head_lookback c then firstnZ (lenZ l0 - c_head_lookback c) l0 else l0 in
  let l2 := match rev l1 with
            | last :: _ => if now - t_time last <? c_period c then firstn (length l1 - 1) l1 else l1
            | [] => l1 end in
  let suffix := firstnZ (Z.min (Z.min 128 (c_proposed_len c) - 1) (lenZ l2)) l2 in
  is_prefix suffix l0 /\ (1 <= c_proposed_len c -> lenZ suffix + 1 <= Z.min 128 (c_proposed_len c)).
Proof.
  intros l1 l2 suffix. split.
  - apply (prefix_trans _ l2); [apply firstn_prefix|]. apply (prefix_trans _ l1).
    + unfold l2. destruct (rev l1) as [|x r]; [exists []; symmetry; apply app_nil_r|].
      destruct (now - t_time x <? c_period c); [apply firstn_prefix|exists []; symmetry; apply app_nil_r].
    + unfold l1. destruct (0 <? c_head_lookback c); [apply firstn_prefix|exists []; symmetry; apply app_nil_r].
  - intros Hp. unfold suffix, firstnZ, lenZ. rewrite firstn_length. lia.
Qed.
