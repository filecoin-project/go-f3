From Coq Require Import ZArith List Bool Lia.
From F3 Require Import ListX Cache.
Import ListNotations.
Open Scope Z_scope.

Lemma zl_eqb_eq a b : zl_eqb a b = true <-> a = b. Proof. exact (eqb_listZ_eq a b). Qed.
Lemma zl_eqb_refl a : zl_eqb a a = true. Proof. exact (eqb_listZ_refl a). Qed.
Lemma zl_eqb_neq a b : a <> b -> zl_eqb a b = false. Proof. exact (eqb_listZ_neq a b). Qed.

(* KInv, the key invariant: every stored portion is keyed by its own chain *)
Definition good_entry (e : ckey * portion) : Prop := match snd e with Chain c => fst e = c | Placeholder => True end.
Definition good_lru (l : lru) : Prop := Forall good_entry l.
Definition good_map (m : list (Z * lru)) : Prop := Forall (fun e => good_lru (snd e)) m.
Definition KInv (s : cx) : Prop := good_map (wanted s) /\ good_map (discovered s).

Lemma find_in l k v : lru_find l k = Some v -> In (k, v) l.
Proof.
  induction l as [|[k' v'] r IH]; cbn; [discriminate|]. destruct (zl_eqb k' k) eqn:E.
  - apply zl_eqb_eq in E. intros H; inversion H; subst. auto.
  - auto.
Qed.
Lemma good_find l k c : good_lru l -> lru_find l k = Some (Chain c) -> k = c.
Proof. intros G H. apply find_in in H. unfold good_lru in G. rewrite Forall_forall in G. apply (G _ H). Qed.
Lemma good_remove l k : good_lru l -> good_lru (lru_remove l k).
Proof. induction 1 as [|[k' v'] r Hx Hr IH]; cbn; [constructor|]. destruct (zl_eqb k' k); auto. constructor; auto. Qed.
Lemma good_add cap l k v : good_lru l -> good_entry (k, v) -> good_lru (lru_add cap l k v).
Proof. intros G E. unfold lru_add. apply Forall_firstn. constructor; auto. apply good_remove; auto. Qed.
Lemma good_coa cap l k v : good_lru l -> good_entry (k, v) -> good_lru (lru_contains_or_add cap l k v).
Proof. intros G E. unfold lru_contains_or_add. destruct (lru_find l k); auto. apply good_add; auto. Qed.
Lemma good_get l k l' v : good_lru l -> lru_get l k = (l', v) -> good_lru l' /\ (forall c, v = Some (Chain c) -> k = c).
Proof.
  intros G. unfold lru_get. destruct (lru_find l k) as [p|] eqn:F; intros H; inversion H; subst.
  - split. { constructor; [|apply good_remove; auto]. destruct p; cbn; auto. eapply good_find; eauto. }
    intros c Hc. inversion Hc; subst. eapply good_find; eauto.
  - split; auto. discriminate.
Qed.
Lemma good_inst_get m i : good_map m -> good_lru (inst_get m i).
Proof. induction 1 as [|[j l] r Hx Hr IH]; cbn; [constructor|]. destruct (j =? i); auto. Qed.
Lemma good_inst_set m i l : good_map m -> good_lru l -> good_map (inst_set m i l).
Proof.
  intros G Hl. induction G as [|[j l'] r Hx Hr IH]; cbn; [constructor; auto; constructor|].
  destruct (j =? i); constructor; auto.
Qed.

Lemma KInv_empty : KInv cx_empty. Proof. split; constructor. Qed.

Lemma lookup_snd capw capd s i k : k <> [] ->
  snd (lookup capw capd s i k) =
  match lru_find (inst_get (wanted s) i) k with
  | Some (Chain c) => Some c
  | _ => match lru_find (inst_get (discovered s) i) k with Some (Chain c) => Some c | _ => None end
  end.
Proof.
  intros Hk. unfold lookup. destruct k as [|k0 kr]; [contradiction|]. unfold lru_get.
  destruct (lru_find (inst_get (wanted s) i) (k0 :: kr)) as [[|c]|]; try reflexivity;
  destruct (lru_find (inst_get (discovered s) i) (k0 :: kr)) as [[|c]|]; reflexivity.
Qed.

Theorem lookup_preserves_KInv capw capd s i k : KInv s -> KInv (fst (lookup capw capd s i k)).
Proof.
  intros [Gw Gd]. unfold lookup. destruct k as [|k0 kr]; [split; auto|]. set (k := k0 :: kr) in *.
  destruct (lru_get (inst_get (wanted s) i) k) as [w1 got] eqn:E1.
  destruct (good_get _ _ _ _ (good_inst_get _ i Gw) E1) as [Gw1 _].
  destruct (lru_get (inst_get (discovered s) i) k) as [d1 gd] eqn:E2.
  destruct (good_get _ _ _ _ (good_inst_get _ i Gd) E2) as [Gd1 Hk2].
  assert (Gp : forall p, gd = Some p -> good_entry (k, p)). { intros [|c] E; [exact I|exact (Hk2 c E)]. }
  assert (Gph : good_entry (k, Placeholder)) by exact I.
  destruct got as [[|c1]|]; [|split; cbn; auto using good_inst_set|];
    (destruct gd as [p|]; split; cbn; apply good_inst_set; auto using good_add, good_remove, good_coa).
Qed.

Theorem lookup_key_matches capw capd s i k s' c : KInv s -> lookup capw capd s i k = (s', Some c) -> c = k /\ KInv s'.
Proof.
  intros G E. split.
  - assert (Hk : k <> []) by (intros ->; discriminate).
    pose proof (lookup_snd capw capd s i k Hk) as S. rewrite E in S. cbn [snd] in S.
    assert (H : lru_find (inst_get (wanted s) i) k = Some (Chain c) \/ lru_find (inst_get (discovered s) i) k = Some (Chain c)).
    { destruct (lru_find (inst_get (wanted s) i) k) as [[|c1]|]; [|left; congruence|];
        (destruct (lru_find (inst_get (discovered s) i) k) as [[|c2]|]; try discriminate; right; congruence). }
    destruct G as [Gw Gd]. symmetry. destruct H as [H|H]; [exact (good_find _ _ _ (good_inst_get _ i Gw) H)|exact (good_find _ _ _ (good_inst_get _ i Gd) H)].
  - replace s' with (fst (lookup capw capd s i k)) by (rewrite E; reflexivity). apply lookup_preserves_KInv, G.
Qed.

Theorem wanted_preserves_KInv capw s i c : KInv s -> KInv (cache_as_wanted capw s i c).
Proof.
  intros [Gw Gd]. unfold cache_as_wanted. split; cbn; auto. apply good_inst_set; auto.
  apply fold_left_inv; [|apply good_inst_get; auto]. intros w p G.
  destruct (lru_peek w p) as [[|c']|]; auto; apply good_add; auto; reflexivity.
Qed.

Lemma dstep_none capw capd w d p : lru_find w p = None ->
  dstep capw capd (w, d) p = (w, lru_contains_or_add capd d p (Chain p)).
Proof. intros E. unfold dstep, lru_peek. rewrite E. reflexivity. Qed.
Lemma dstep_placeholder capw capd w d p : lru_find w p = Some Placeholder ->
  dstep capw capd (w, d) p = (lru_add capw w p (Chain p), d).
Proof. intros E. unfold dstep, lru_peek. rewrite E. reflexivity. Qed.
Lemma dstep_chain capw capd w d p c : lru_find w p = Some (Chain c) -> dstep capw capd (w, d) p = (w, d).
Proof. intros E. unfold dstep, lru_peek. rewrite E. reflexivity. Qed.

Lemma dstep_good capw capd st p : good_lru (fst st) /\ good_lru (snd st) ->
  good_lru (fst (dstep capw capd st p)) /\ good_lru (snd (dstep capw capd st p)).
Proof.
  destruct st as [w d]. intros [Gw Gd]. unfold dstep. destruct (lru_peek w p) as [[|c]|]; cbn [fst snd] in *; split; auto.
  - apply good_add; auto; reflexivity.
  - apply good_coa; auto; reflexivity.
Qed.
Theorem discovered_preserves_KInv capw capd s i c : KInv s -> KInv (cache_as_discovered capw capd s i c).
Proof.
  intros [Gw Gd]. unfold cache_as_discovered.
  destruct (fold_left_inv _ _ (rev (all_prefixes c)) (dstep_good capw capd) (_, _) (conj (good_inst_get _ i Gw) (good_inst_get _ i Gd))) as [A B].
  destruct (fold_left _ _ _) as [w d]. split; cbn; apply good_inst_set; auto.
Qed.

Theorem prune_preserves_KInv s n : KInv s -> KInv (prune s n).
Proof.
  intros [Gw Gd]. unfold prune, KInv, good_map in *. cbn. rewrite !Forall_forall in *.
  split; intros x Hx; apply filter_In in Hx; destruct Hx; auto.
Qed.

Lemma fold_dstep_unsolicited capw capd ks : forall w d, (forall p, In p ks -> lru_find w p = None) ->
  fold_left (dstep capw capd) ks (w, d) = (w, fold_left (fun d p => lru_contains_or_add capd d p (Chain p)) ks d).
Proof.
  induction ks as [|p ks IH]; intros w d H; cbn [fold_left]; auto.
  rewrite dstep_none by (apply H; left; auto). apply IH. intros q Hq. apply H. right; auto.
Qed.

Lemma inst_get_set m i j l : inst_get (inst_set m i l) j = if i =? j then l else inst_get m j.
Proof.
  induction m as [|[a b] r IH]; cbn.
  - destruct (i =? j); auto.
  - destruct (a =? i) eqn:E; cbn.
    + apply Z.eqb_eq in E. subst a. destruct (i =? j); auto.
    + rewrite IH. destruct (a =? j) eqn:E2; auto. destruct (i =? j) eqn:E3; auto.
      apply Z.eqb_eq in E2, E3. subst. rewrite Z.eqb_refl in E. discriminate.
Qed.

Theorem unsolicited_keeps_wanted capw capd s i c :
  (forall p, In p (all_prefixes c) -> lru_find (inst_get (wanted s) i) p = None) ->
  forall j, inst_get (wanted (cache_as_discovered capw capd s i c)) j = inst_get (wanted s) j.
Proof.
  intros H j. unfold cache_as_discovered. rewrite fold_dstep_unsolicited by (intros p Hp; apply H, in_rev, Hp).
  cbn [wanted]. rewrite inst_get_set. destruct (i =? j) eqn:Ei; auto. apply Z.eqb_eq in Ei. subst; auto.
Qed.

Lemma floods_keep_wanted capw capd i floods : forall s,
  (forall u p, In u floods -> In p (all_prefixes u) -> lru_find (inst_get (wanted s) i) p = None) ->
  inst_get (wanted (fold_left (fun s u => cache_as_discovered capw capd s i u) floods s)) i = inst_get (wanted s) i.
Proof.
  induction floods as [|u r IH]; intros s Hu; cbn [fold_left]; auto.
  assert (E : inst_get (wanted (cache_as_discovered capw capd s i u)) i = inst_get (wanted s) i).
  { apply unsolicited_keeps_wanted. intros p Hp. apply (Hu u p); cbn; auto. }
  rewrite IH, E; auto. intros u' p Hu' Hp. rewrite E. apply (Hu u' p); cbn; auto.
Qed.

Theorem wanted_retained capw capd s i k (floods : list chain) :
  k <> [] -> lru_find (inst_get (wanted s) i) k = Some (Chain k) ->
  (forall u p, In u floods -> In p (all_prefixes u) -> lru_find (inst_get (wanted s) i) p = None) ->
  snd (lookup capw capd (fold_left (fun s u => cache_as_discovered capw capd s i u) floods s) i k) = Some k.
Proof. intros Hk Hf Hu. rewrite lookup_snd, floods_keep_wanted, Hf by assumption. reflexivity. Qed.

Lemma find_firstn_full n l k v : lru_find (firstn n l) k = Some v -> lru_find l k = Some v.
Proof.
  revert n. induction l as [|[a b] l IH]; intros [|n]; cbn; try discriminate. destruct (zl_eqb a k); eauto.
Qed.
Lemma find_firstn_S n l k v : lru_find (firstn n l) k = Some v -> lru_find (firstn (S n) l) k = Some v.
Proof.
  revert n. induction l as [|[a b] l IH]; intros [|n]; try discriminate. rewrite !firstn_cons. cbn [lru_find].
  destruct (zl_eqb a k); auto.
Qed.
Lemma find_firstn_remove n l k p v : p <> k -> lru_find (firstn n l) k = Some v ->
  lru_find (firstn n (lru_remove l p)) k = Some v.
Proof.
  intros Hpk. revert n. induction l as [|[a b] l IH]; intros [|n]; try discriminate. rewrite firstn_cons. cbn [lru_find lru_remove].
  destruct (zl_eqb a p) eqn:Ep.
  - apply zl_eqb_eq in Ep. subst a. rewrite (zl_eqb_neq p k Hpk). apply find_firstn_S.
  - rewrite firstn_cons. cbn [lru_find]. destruct (zl_eqb a k); auto.
Qed.
Lemma find_firstn_add cap n l k p v pv : p <> k -> (S n <= cap)%nat -> lru_find (firstn n l) k = Some v ->
  lru_find (firstn (S n) (lru_add cap l p pv)) k = Some v.
Proof.
  intros Hpk Hn H. unfold lru_add. rewrite firstn_firstn, Nat.min_l by lia. rewrite firstn_cons. cbn [lru_find].
  rewrite (zl_eqb_neq p k Hpk). apply find_firstn_remove; auto.
Qed.
Lemma find_firstn_add_same cap l k v : (1 <= cap)%nat -> lru_find (firstn 1 (lru_add cap l k v)) k = Some v.
Proof. intros H. unfold lru_add. destruct cap; [lia|]. cbn. rewrite zl_eqb_refl. reflexivity. Qed.

Lemma lru_find_add_same cap l k v : (1 <= cap)%nat -> lru_find (lru_add cap l k v) k = Some v.
Proof. intros H. apply (find_firstn_full 1), find_firstn_add_same, H. Qed.

(* (k, Chain k) among the first n entries of wanted survives |ks| further admissions if n + |ks| fits the cache:
   each step puts at most one entry in front of it *)
Lemma fold_dstep_keeps capw capd k ks : forall w d n, (n + length ks <= capw)%nat ->
  lru_find (firstn n w) k = Some (Chain k) ->
  lru_find (fst (fold_left (dstep capw capd) ks (w, d))) k = Some (Chain k).
Proof.
  induction ks as [|p ks IH]; intros w d n Hn H; cbn [fold_left length] in *.
  - eapply find_firstn_full; eauto.
  - destruct (lru_find w p) as [[|c]|] eqn:Pk.
    + (* a placeholder for p is replaced: p <> k since k maps to a chain *)
      rewrite (dstep_placeholder _ _ _ _ _ Pk). apply (IH _ _ (S n)); [lia|]. apply find_firstn_add; [|lia|exact H].
      intros ->. apply find_firstn_full in H. congruence.
    + rewrite (dstep_chain _ _ _ _ _ _ Pk). apply (IH _ _ n); [lia|exact H].
    + rewrite (dstep_none _ _ _ _ _ Pk). apply (IH _ _ n); [lia|exact H].
Qed.

Lemma prefixes_from_snoc acc rest : rest <> [] -> exists ps, prefixes_from acc rest = ps ++ [acc ++ rest].
Proof.
  revert acc. induction rest as [|x r IH]; intros acc H; [contradiction|]. cbn [prefixes_from]. destruct r as [|y r'].
  - exists []. reflexivity.
  - destruct (IH (acc ++ [x]) ltac:(discriminate)) as [ps E]. exists ((acc ++ [x]) :: ps). rewrite E, <- app_assoc. reflexivity.
Qed.

(* asking for a key leaves a placeholder; the admitted chain then replaces it in the WANTED cache *)
Theorem asked_then_admitted_is_wanted capw capd s i k : (1 <= capw)%nat -> k <> [] ->
  lru_find (inst_get (wanted s) i) k = Some Placeholder ->
  exists w', inst_get (wanted (cache_as_discovered capw capd s i k)) i = w' /\
    (lru_find w' k = Some (Chain k) \/ (* unless later (shorter) prefixes pushed it out of a tiny cache *) (length (all_prefixes k) > capw)%nat).
Proof.
  intros Hc Hk Hp. eexists. split; [reflexivity|].
  destruct (Nat.lt_ge_cases capw (length (all_prefixes k))) as [Hlt|Hge]; [right; lia|]. left.
  (* the first prefix processed is k itself *)
  destruct (prefixes_from_snoc [] k Hk) as [ps E]. unfold cache_as_discovered. revert Hge. unfold all_prefixes. rewrite E. cbn [app].
  rewrite rev_app_distr, app_length, <- (rev_length ps). cbn [rev app length fold_left]. intros Hge.
  rewrite (dstep_placeholder _ _ _ _ _ Hp).
  pose proof (fold_dstep_keeps capw capd k (rev ps) (lru_add capw (inst_get (wanted s) i) k (Chain k)) (inst_get (discovered s) i) 1
     ltac:(unfold chain, ckey in *; lia) (find_firstn_add_same _ _ _ _ Hc)) as G.
  destruct (fold_left _ _ _) as [wf df]. cbn [wanted fst] in *. rewrite inst_get_set, Z.eqb_refl. exact G.
Qed.

Lemma inst_get_filter m n i :
  inst_get (filter (fun e => negb (fst e <? n)) m) i = if i <? n then [] else inst_get m i.
Proof.
  induction m as [|[j l] r IH]; cbn.
  - destruct (i <? n); auto.
  - destruct (j <? n) eqn:E; cbn.
    + rewrite IH. destruct (i <? n) eqn:E2; auto. destruct (j =? i) eqn:E3; auto.
      apply Z.eqb_eq in E3. subst. congruence.
    + destruct (j =? i) eqn:E3.
      * apply Z.eqb_eq in E3. subst. rewrite E. reflexivity.
      * exact IH.
Qed.

Theorem prune_exact s n i :
  inst_get (wanted (prune s n)) i = (if i <? n then [] else inst_get (wanted s) i) /\
  inst_get (discovered (prune s n)) i = (if i <? n then [] else inst_get (discovered s) i).
Proof. unfold prune. cbn. split; apply inst_get_filter. Qed.

Lemma if_accept (c : bool) (x r : verdict) : x <> Accept -> ((if c then x else r) = Accept <-> c = false /\ r = Accept).
Proof. destruct c; intuition congruence. Qed.

Theorem admission_spec cur lookahead input_base now age m :
  validator_verdict cur lookahead input_base now age m = Accept <->
  b_decodes m = true /\ b_chain_valid m = true /\
  (exists base rest, b_chain m = base :: rest /\
     (forall ib, input_base = Some ib -> b_inst m = cur -> ib = base)) /\
  cur <= b_inst m <= cur + lookahead /\ now - age <= b_ts m <= now.
Proof.
  unfold validator_verdict. rewrite if_accept by discriminate. destruct (b_chain m) as [|base rest].
  { split; [intros [_ H]; discriminate|intros (_ & _ & (b & r & H & _) & _); discriminate]. }
  rewrite !if_accept by discriminate.
  assert (B : match input_base with Some ib => (b_inst m =? cur) && negb (ib =? base) | None => false end = false <->
              forall ib, input_base = Some ib -> b_inst m = cur -> ib = base).
  { destruct input_base as [ib|]; [|split; [discriminate|reflexivity]].
    rewrite andb_false_iff, negb_false_iff, Z.eqb_neq, Z.eqb_eq. split.
    - intros [H|H] ib' [= <-] Hi; [contradiction|exact H].
    - intros H. destruct (Z.eq_dec (b_inst m) cur); [right|left]; auto. }
  split.
  - intros (A1 & A2 & A3 & A4 & A5 & _). apply negb_false_iff in A1, A2. repeat split; auto; try lia.
    exists base, rest. split; [reflexivity|apply B, A4].
  - intros (A1 & A2 & (b & r & [= <- <-] & A3) & A4 & A5). rewrite A1, A2. repeat split; auto; try lia. apply B, A3.
Qed.

Lemma remove_not_found l k : lru_find l k = None -> lru_remove l k = l.
Proof.
  induction l as [|[k' v] r IH]; cbn; auto. destruct (zl_eqb k' k); [discriminate|]. intros H. rewrite IH; auto.
Qed.

Lemma coa_room cap l k v : (length l < cap)%nat -> lru_find l k = None -> lru_contains_or_add cap l k v = (k, v) :: l.
Proof.
  intros Hl Hf. unfold lru_contains_or_add, lru_add. rewrite Hf, (remove_not_found _ _ Hf).
  apply firstn_all2. cbn. lia.
Qed.

Lemma fold_coa_room cap ks : forall d, (length d + length ks <= cap)%nat ->
  forall k, lru_find (fold_left (fun d p => lru_contains_or_add cap d p (Chain p)) ks d) k =
    match lru_find d k with Some v => Some v | None => if existsb (zl_eqb k) ks then Some (Chain k) else None end.
Proof.
  induction ks as [|p ks IH]; intros d Hl k; cbn [fold_left length] in *.
  - cbn. destruct (lru_find d k); auto.
  - destruct (lru_find d p) as [vp|] eqn:Fp.
    + unfold lru_contains_or_add at 2. rewrite Fp, IH by lia.
      destruct (lru_find d k) eqn:Fk; auto. cbn [existsb]. destruct (zl_eqb k p) eqn:Ek; auto.
      apply zl_eqb_eq in Ek. subst. congruence.
    + rewrite (coa_room cap d p (Chain p)), IH by (auto; cbn [length]; lia).
      cbn [lru_find existsb]. destruct (zl_eqb p k) eqn:Ek.
      * apply zl_eqb_eq in Ek. subst k. rewrite Fp, zl_eqb_refl. reflexivity.
      * destruct (lru_find d k); auto. rewrite (zl_eqb_neq k p); auto. intros ->. rewrite zl_eqb_refl in Ek. discriminate.
Qed.

(* the third hypothesis holds of every reachable state (only lookup writes a Placeholder, and into wanted); KInv does
   not record it *)
Theorem admitted_retrievable capw capd s i c : KInv s ->
  (forall p, In p (all_prefixes c) -> lru_find (inst_get (wanted s) i) p = None) ->
  (forall k, lru_find (inst_get (discovered s) i) k <> Some Placeholder) ->
  (length (inst_get (discovered s) i) + length (all_prefixes c) <= capd)%nat ->
  forall p, In p (all_prefixes c) -> p <> [] ->
    snd (lookup capw capd (cache_as_discovered capw capd s i c) i p) = Some p.
Proof.
  intros [_ Gd] Hw Hph Hroom p Hp Hne.
  rewrite lookup_snd, (unsolicited_keeps_wanted capw capd s i c Hw i), (Hw p Hp) by exact Hne.
  unfold cache_as_discovered. rewrite fold_dstep_unsolicited by (intros q Hq; apply Hw, in_rev, Hq).
  cbn [discovered]. rewrite inst_get_set, Z.eqb_refl, fold_coa_room by (rewrite rev_length; exact Hroom).
  destruct (lru_find (inst_get (discovered s) i) p) as [[|c0]|] eqn:F.
  - destruct (Hph _ F).
  - f_equal. symmetry. exact (good_find _ _ _ (good_inst_get _ i Gd) F).
  - assert (existsb (zl_eqb p) (rev (all_prefixes c)) = true) as ->; [|reflexivity].
    apply existsb_exists. exists p. split; [apply in_rev; rewrite rev_involutive; auto | apply zl_eqb_refl].
Qed.
