(* The poller's per-certificate loop (certexchange/polling/poller.go, Poller.Poll) next to the node's OWN progress: while a
   request is in flight and while its response is being processed, the node's GPBFT instance may store certificates itself.
   State: the poller's cursor NextInstance and the store's latest instance (-1 = none).  A certificate from the peer is
   represented by its instance number and whether it validates against the poller's current table; a local event stores
   the honest successor of the store's latest certificate.  C16: whatever happens locally, the cursor advances exactly by
   the valid prefix of the response and an honest response is never classified as illegal. *)
From Coq Require Import ZArith List Bool Lia.
Import ListNotations.
Open Scope Z_scope.

Inductive pitem := PCert (inst : Z) (valid : bool) | PLocal.
Record lstate := mkLS { ls_next : Z; ls_latest : Z; ls_received : Z; ls_new : Z; ls_illegal : bool }.

Definition lstep (s : lstate) (it : pitem) : lstate :=
  if ls_illegal s then s else
  match it with
  | PLocal => mkLS (ls_next s) (ls_latest s + 1) (ls_received s) (ls_new s) false
  | PCert n valid =>
      if negb ((n =? ls_next s) && valid) then mkLS (ls_next s) (ls_latest s) (ls_received s) (ls_new s) true
      else
        (* received; stored only if the store does not have it yet; the cursor moves in either case *)
        if ls_latest s <? n then mkLS (n + 1) n (ls_received s + 1) (ls_new s + 1) false
        else mkLS (n + 1) (ls_latest s) (ls_received s + 1) (ls_new s) false
  end.
Definition lrun (s : lstate) (its : list pitem) : lstate := fold_left lstep its s.

Fixpoint honest_from (from : Z) (its : list pitem) : Prop :=
  match its with
  | [] => True
  | PLocal :: r => honest_from from r
  | PCert n valid :: r => n = from /\ valid = true /\ honest_from (from + 1) r
  end.
Fixpoint ncerts (its : list pitem) : Z := match its with [] => 0 | PLocal :: r => ncerts r | PCert _ _ :: r => 1 + ncerts r end.

Fixpoint valid_prefix (from : Z) (its : list pitem) : Z :=
  match its with
  | [] => 0
  | PLocal :: r => valid_prefix from r
  | PCert n v :: r => if (n =? from) && v then 1 + valid_prefix (from + 1) r else 0
  end.
Fixpoint all_valid (from : Z) (its : list pitem) : bool :=
  match its with
  | [] => true
  | PLocal :: r => all_valid from r
  | PCert n v :: r => if (n =? from) && v then all_valid (from + 1) r else false
  end.

(* compared with what the real poller reports (harness, poll-local-put-in-flight scenarios) *)
Definition local_poll_ok (next latest : Z) (its : list pitem) (obs_next obs_latest obs_received obs_new : Z) (obs_illegal : bool) : bool :=
  let s := lrun (mkLS next latest 0 0 false) its in
  (ls_next s =? obs_next) && (ls_latest s =? obs_latest) && (ls_received s =? obs_received) && (ls_new s =? obs_new) && Bool.eqb (ls_illegal s) obs_illegal.

Lemma valid_prefix_nonneg its : forall from, 0 <= valid_prefix from its.
Proof.
  induction its as [|[n v|] r IH]; intros from; cbn [valid_prefix]; [lia| |apply IH].
  destruct ((n =? from) && v); [specialize (IH (from + 1))|]; lia.
Qed.

(* the store's latest instance after a certificate is a Z.max: no case split on it *)
Lemma lstep_proj s it : ls_illegal s = false ->
  match it with
  | PLocal => ls_next (lstep s it) = ls_next s /\ ls_latest (lstep s it) = ls_latest s + 1 /\
              ls_received (lstep s it) = ls_received s /\ ls_illegal (lstep s it) = false
  | PCert n v =>
      if (n =? ls_next s) && v
      then ls_next (lstep s it) = ls_next s + 1 /\ ls_latest (lstep s it) = Z.max (ls_latest s) (ls_next s) /\
           ls_received (lstep s it) = ls_received s + 1 /\ ls_illegal (lstep s it) = false
      else ls_next (lstep s it) = ls_next s /\ ls_latest (lstep s it) = ls_latest s /\
           ls_received (lstep s it) = ls_received s /\ ls_illegal (lstep s it) = true
  end.
Proof.
  intros Hi. unfold lstep. rewrite Hi. destruct it as [n v|]; [|cbn; auto].
  destruct (Z.eqb_spec n (ls_next s)) as [->|]; [destruct v|]; cbn [andb negb]; [|cbn; auto..].
  destruct (Z.ltb_spec (ls_latest s) (ls_next s)); cbn; repeat split; lia.
Qed.

Theorem illegal_is_final its : forall s, ls_illegal s = true -> lrun s its = s.
Proof. induction its as [|it r IH]; intros s H; cbn [lrun fold_left]; [reflexivity|]. unfold lstep at 2. rewrite H. apply IH. exact H. Qed.

Theorem lrun_spec its : forall s, ls_illegal s = false ->
  ls_next (lrun s its) = ls_next s + valid_prefix (ls_next s) its /\
  ls_received (lrun s its) = ls_received s + valid_prefix (ls_next s) its /\
  ls_illegal (lrun s its) = negb (all_valid (ls_next s) its) /\
  ls_latest s <= ls_latest (lrun s its) /\
  (0 < valid_prefix (ls_next s) its -> ls_next (lrun s its) - 1 <= ls_latest (lrun s its)).
Proof.
  induction its as [|it r IH]; intros s Hi; [cbn; rewrite Hi; repeat split; lia|].
  change (lrun s (it :: r)) with (lrun (lstep s it) r). pose proof (lstep_proj s it Hi) as P.
  destruct it as [n v|]; cbn [valid_prefix all_valid].
  - destruct ((n =? ls_next s) && v) eqn:E.
    + apply andb_true_iff in E. destruct E as [->%Z.eqb_eq _]. destruct P as (P1 & P2 & P3 & P4).
      specialize (IH _ P4). rewrite P1, P2, P3 in IH. destruct IH as (A & B & C & D & F). rewrite A, B, C.
      pose proof (valid_prefix_nonneg r (ls_next s + 1)). repeat split; lia.
    + destruct P as (P1 & P2 & P3 & P4). rewrite illegal_is_final by exact P4. rewrite P1, P2, P3, P4. cbn. repeat split; lia.
  - destruct P as (P1 & P2 & P3 & P4). specialize (IH _ P4). rewrite P1, P2, P3 in IH. destruct IH as (A & B & C & D & F).
    rewrite A, B, C. repeat split; lia.
Qed.

Lemma honest_valid its : forall from, honest_from from its -> valid_prefix from its = ncerts its /\ all_valid from its = true.
Proof.
  induction its as [|[n v|] r IH]; intros from H; cbn in *; auto.
  destruct H as (-> & -> & H). rewrite Z.eqb_refl. cbn. destruct (IH _ H) as [-> ->]. auto.
Qed.

Lemma lstep_counters s it :
  ls_next s <= ls_next (lstep s it) /\ 0 <= ls_new (lstep s it) - ls_new s <= ls_received (lstep s it) - ls_received s.
Proof.
  unfold lstep. destruct (ls_illegal s); [lia|]. destruct it as [n v|]; cbn [ls_next ls_new ls_received]; [|lia].
  destruct ((n =? ls_next s) && v) eqn:E; cbn [negb ls_next ls_new ls_received]; [|lia].
  apply andb_true_iff in E. destruct E as [En _]. apply Z.eqb_eq in En.
  destruct (ls_latest s <? n); cbn [ls_next ls_new ls_received]; lia.
Qed.
