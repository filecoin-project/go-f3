(* Without local events the loop of PollLocal.v is the `consume` loop of Exchange.v (the model the multi-request poller
   correspondence runs through), instantiated as in that correspondence: same cursor, same count, same verdict. *)
From Coq Require Import ZArith List Bool Lia.
From F3 Require Import Exchange PollLocal.
Import ListNotations.
Open Scope Z_scope.

Definition as_item (c : dcert) : pitem := PCert (fst c) (snd c).

Lemma consume_is_lrun cs : forall next st rc latest nw,
  let '(s', rc', ill) := consume dcert unit dvalidate {| p_next := next; p_tbl := tt; p_store := st |} cs rc in
  let l := lrun (mkLS next latest (Z.of_nat rc) nw false) (map as_item cs) in
  ls_next l = p_next _ _ s' /\ ls_received l = Z.of_nat rc' /\ ls_illegal l = ill.
Proof.
  induction cs as [|[n v] r IH]; intros next st rc latest nw; [cbn; auto|].
  cbn [consume map p_tbl p_next p_store]. change (lrun ?s (?it :: ?r)) with (lrun (lstep s it) r).
  pose proof (lstep_proj (mkLS next latest (Z.of_nat rc) nw false) (as_item (n, v)) eq_refl) as P.
  unfold dvalidate, as_item in *. cbn [fst snd ls_next ls_latest ls_received] in *.
  destruct ((n =? next) && v) eqn:E.
  - apply andb_true_iff in E. destruct E as [->%Z.eqb_eq _]. destruct P as (P1 & P2 & P3 & P4).
    destruct (lstep _ _) as [a b c d e]. cbn in P1, P2, P3, P4. subst.
    replace (Z.of_nat rc + 1) with (Z.of_nat (S rc)) by lia. apply IH.
  - destruct P as (P1 & P2 & P3 & P4). rewrite illegal_is_final by exact P4. auto.
Qed.
