From Coq Require Import ZArith List Bool Lia.
From F3 Require Import GoInt ListX ServerGen Exchange.
Import ListNotations.
Open Scope Z_scope.

Lemma server_limit_spec l : 0 <= l -> server_limit l = Z.min l 256.
Proof. intros H. unfold server_limit. cbv zeta. rewrite Z.gtb_ltb. destruct (Z.ltb_spec 256 l); lia. Qed.

Lemma wrap_sum_pred x y : 0 <= x < two64 -> 1 <= y <= two64 ->
  sub_u64 (add_u64 x y) 1 = if x + y - 1 <? two64 then x + y - 1 else x + y - 1 - two64.
Proof.
  intros Hx Hy. unfold sub_u64, add_u64, wrap_u64. rewrite Zminus_mod_idemp_l.
  destruct (Z.ltb_spec (x + y - 1) two64); [apply Z.mod_small; lia|].
  symmetry. apply Z.mod_unique with (q := 1); unfold two64 in *; lia.
Qed.

Lemma server_end_spec first l pending :
  0 <= first < pending -> pending < two64 -> 0 < l < two64 ->
  server_end first l pending = Z.min (first + Z.min l 256 - 1) (pending - 1).
Proof.
  intros Hf Hp Hl. unfold server_end. cbv zeta. change (if l >? 256 then 256 else l) with (server_limit l).
  rewrite server_limit_spec by lia. set (m := Z.min l 256). assert (1 <= m <= 256) by (subst m; lia).
  rewrite wrap_sum_pred by (unfold two64 in *; lia).
  unfold sub_u64. rewrite (wrap_u64_id (pending - 1)) by (unfold in_u64; lia). rewrite !Z.geb_leb.
  destruct (Z.ltb_spec (first + m - 1) two64).
  - destruct (Z.ltb_spec (first + m - 1) first); [lia|]. destruct (Z.leb_spec pending (first + m - 1)); lia.
  - (* first + m wraps: end < first, so end := pending - 1 *)
    destruct (Z.ltb_spec (first + m - 1 - two64) first); [|unfold two64 in *; lia]. destruct (Z.leb_spec pending (pending - 1)); lia.
Qed.

Theorem serve_exact sfirst pending first l :
  0 <= sfirst <= pending -> pending < two64 -> 0 <= first < two64 -> 0 <= l < two64 ->
  serve sfirst pending first l =
    if (sfirst <=? first) && (first <? pending) && (0 <? l)
    then zseq first (Z.to_nat (Z.min (Z.min l 256) (pending - first)))
    else [].
Proof.
  intros Hs Hp Hf Hl. unfold serve, server_guard, get_range. cbv zeta. rewrite server_limit_spec, !Z.gtb_ltb by lia. cbn [andb].
  destruct (Z.ltb_spec first pending); [|rewrite andb_false_r; reflexivity].
  replace (0 <? Z.min l 256) with (0 <? l) by (destruct (Z.ltb_spec 0 l), (Z.ltb_spec 0 (Z.min l 256)); lia).
  destruct (Z.ltb_spec 0 l); [|rewrite !andb_false_r; reflexivity]. rewrite server_end_spec by lia. cbn [andb]. rewrite !andb_true_r.
  destruct (Z.ltb_spec first sfirst), (Z.leb_spec sfirst first), (Z.leb_spec pending first); try lia; cbn [orb]; [reflexivity|].
  f_equal. f_equal. lia.
Qed.

Theorem client_sequential (A : Type) (inst : A -> Z) first limit (stream : list A) :
  forall idx, exists n, (n <= limit)%nat /\
    map inst (client_recv inst first limit idx stream) = zseq (first + idx) n /\
    client_recv inst first limit idx stream = firstn n stream.
Proof.
  revert stream. induction limit as [|l IH]; intros stream idx.
  - exists 0%nat. cbn. destruct stream; auto.
  - destruct stream as [|c rest]; cbn [client_recv].
    + exists 0%nat. cbn. split; [lia|auto].
    + destruct (inst c =? first + idx) eqn:E.
      * apply Z.eqb_eq in E. destruct (IH rest (idx + 1)) as [n [Hn [H1 H2]]].
        exists (S n). split; [lia|]. cbn [zseq firstn map]. split.
        -- rewrite H1, E. replace (first + (idx + 1)) with (first + idx + 1) by lia. reflexivity.
        -- rewrite H2. reflexivity.
      * exists 0%nat. cbn. split; [lia|auto].
Qed.

(* whatever the peer sends, the store grows by certificates that validate, in sequence, against the poller's own table *)
Section PollerProofs.
  Variable cert tbl : Type.
  Variable validate : tbl -> Z -> cert -> option tbl.

  Fixpoint valid_run (t : tbl) (next : Z) (cs : list cert) : option tbl :=
    match cs with
    | [] => Some t
    | c :: rest => match validate t next c with None => None | Some t' => valid_run t' (next + 1) rest end
    end.

  Lemma valid_run_app t next a b :
    valid_run t next (a ++ b) =
    match valid_run t next a with None => None | Some t' => valid_run t' (next + Z.of_nat (length a)) b end.
  Proof.
    revert t next. induction a as [|c a IH]; intros t next; cbn [app valid_run length].
    - replace (next + Z.of_nat 0) with next by lia. reflexivity.
    - destruct (validate t next c); auto. rewrite IH. destruct (valid_run t0 (next + 1) a); auto.
      f_equal. lia.
  Qed.

  Definition good (s0 s : pstate cert tbl) : Prop :=
    exists added, p_store _ _ s = p_store _ _ s0 ++ added /\
      p_next _ _ s = p_next _ _ s0 + Z.of_nat (length added) /\
      valid_run (p_tbl _ _ s0) (p_next _ _ s0) added = Some (p_tbl _ _ s).

  Lemma good_refl s : good s s.
  Proof. exists []. rewrite app_nil_r. cbn. split; auto. split; [lia|auto]. Qed.

  Lemma good_trans s0 s1 s2 : good s0 s1 -> good s1 s2 -> good s0 s2.
  Proof.
    intros (a1 & A1 & A2 & A3) (a2 & B1 & B2 & B3). exists (a1 ++ a2). rewrite B1, A1, app_assoc. split; auto. split.
    - rewrite app_length. lia.
    - rewrite valid_run_app, A3, <- A2. exact B3.
  Qed.

  Lemma consume_good cs : forall s rc s' rc' ill, consume cert tbl validate s cs rc = (s', rc', ill) -> good s s'.
  Proof.
    induction cs as [|c rest IH]; intros s rc s' rc' ill Hc; cbn [consume] in Hc.
    - inversion Hc; subst. apply good_refl.
    - destruct (validate (p_tbl _ _ s) (p_next _ _ s) c) as [t'|] eqn:V.
      + eapply good_trans; [|apply (IH _ _ _ _ _ Hc)]. exists [c]. cbn. rewrite V. auto.
      + inversion Hc; subst. apply good_refl.
  Qed.

  Theorem poller_stores_valid_prefix responses : forall s st rc s' st' rc',
    poll cert tbl validate s responses st rc = (s', st', rc') -> good s s'.
  Proof.
    induction responses as [|r rest IH]; intros s st rc s' st' rc' H; cbn [poll] in H.
    - inversion H; subst. apply good_refl.
    - destruct r as [[pending cs]|].
      2:{ inversion H; subst. apply good_refl. }
      destruct (consume cert tbl validate s cs rc) as [[s1 rc1] ill] eqn:C. apply consume_good in C.
      destruct ill. { inversion H; subst. exact C. }
      destruct (pending <=? p_next _ _ s1). { inversion H; subst. exact C. }
      destruct (Nat.eqb rc1 0). { inversion H; subst. exact C. }
      exact (good_trans _ _ _ C (IH _ _ _ _ _ _ H)).
  Qed.

  Lemma consume_stops_at_invalid taken c more : forall s rc,
    valid_run (p_tbl _ _ s) (p_next _ _ s) taken <> None ->
    (forall t, valid_run (p_tbl _ _ s) (p_next _ _ s) taken = Some t ->
               validate t (p_next _ _ s + Z.of_nat (length taken)) c = None) ->
    snd (consume cert tbl validate s (taken ++ c :: more) rc) = true.
  Proof.
    induction taken as [|x taken IH]; intros s rc Hv Hn; cbn [app consume].
    - specialize (Hn _ eq_refl). cbn in Hn. rewrite Z.add_0_r in Hn. rewrite Hn. reflexivity.
    - cbn [valid_run] in Hv, Hn. destruct (validate (p_tbl _ _ s) (p_next _ _ s) x) as [t'|]; [|congruence].
      apply IH; [exact Hv|]. cbn [p_tbl p_next]. intros t Ht. specialize (Hn t Ht).
      cbn [length] in Hn. rewrite Nat2Z.inj_succ in Hn. rewrite <- Z.add_assoc, Z.add_1_l. exact Hn.
  Qed.
End PollerProofs.

Example serve_examples :
  serve 0 10 3 2 = [3; 4] /\ serve 0 10 3 0 = [] /\ serve 0 10 8 100 = [8; 9] /\ serve 5 10 3 4 = [] /\
  serve 0 10 10 4 = [] /\ length (serve 0 1000 0 18446744073709551615) = 256%nat.
Proof. repeat split; vm_compute; reflexivity. Qed.
